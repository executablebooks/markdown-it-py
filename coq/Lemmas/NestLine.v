(* C06, containers within containers, on one-line paragraph documents: for EVERY list of containers (block quotes
   "> ", bullet items and ordered items, in any order, any depth below maxNesting) and every line s, the document
   prefix(cs) s LF  parses to the paragraph of s wrapped in exactly those containers, level by level.
   The container rules are run on a line that begins anywhere inside the source (off_line of QuoteLine.v) and
   hand the rest of the line to the nested block loop; induction on the list of containers.  No container, one
   block quote and one bullet item are the laws of C18 / C06 for parse(s LF), parse("> " s LF), parse("- " s LF). *)
From RecordUpdate Require Import RecordUpdate.
From MD Require Import Base.Py Base.Str Model.Token Model.Utils Model.StateBlock Model.Render Model.Core Model.Block
     Model.Inline Model.Pipeline Lemmas.StrLemmas Lemmas.QuoteLemmas Lemmas.TabCols Lemmas.QuoteCols Lemmas.Phases
     Lemmas.BlockEff Lemmas.NormalizeLemmas Lemmas.ParaLine Lemmas.QuoteLine Lemmas.Phases Lemmas.InlineEsc.
From Coq Require Import ZifyBool.

(* the runs of the quote rule below use bare cbn on states; sums, lengths and mark_tight must stay as written there *)
Local Arguments Z.add : simpl never.
Local Arguments Z.sub : simpl never.
Local Arguments len : simpl never.
Local Arguments mark_tight : simpl never.

Lemma update_nth_tok_app_r f (A l : list token) k : update_nth_tok (length A + k) f (A ++ l) = A ++ update_nth_tok k f l.
Proof. unfold update_nth_tok. induction A as [|y A IH]; cbn [length app Nat.add]; [reflexivity | f_equal; exact IH]. Qed.

Lemma set_map_twice t a b : set_map (set_map t a) b = set_map t b.
Proof. destruct t; reflexivity. Qed.

Definition bq_open_at (lv : Z) : token :=
  map_tok 0 1 (set_markup (set_level (set_block (new_token [98; 108; 111; 99; 107; 113; 117; 111; 116; 101; 95; 111; 112; 101; 110] nm_blockquote 1) true) lv) [62]).
Definition bq_close_at (lv : Z) : token :=
  set_markup (set_level (set_block (new_token [98; 108; 111; 99; 107; 113; 117; 111; 116; 101; 95; 99; 108; 111; 115; 101] nm_blockquote (-1)) true) lv) [62].

(* what a callback (the nested block loop) does on the rest of the line; the cursor is asked to be at the line
   although the loop sets it itself (tokenize_reach) *)
Definition rec_adds (rec : rec_t) (p1 p2 L : str) (bs li lv : Z) (X : list token) : Prop :=
  forall stN, off_line stN p1 p2 L bs li lv -> b_line stN = 0 ->
  exists st', rec stN 0 1 = Ok st' /\ off_line st' p1 p2 L bs li lv /\ b_tokens st' = b_tokens stN ++ X
              /\ b_env st' = b_env stN /\ b_line st' = 1 /\ b_tight st' = true.

(* QuoteLine.tokenize_reach as a statement about a callback *)
Lemma rec_adds_rule cfg rf cf d pre1 pre2 c r bs li lv name before rest X :
  lv < c_maxNesting cfg -> c_rules cfg = before ++ name :: rest ->
  (forall st n, off_line st pre1 pre2 (c :: r) bs li lv -> In n before ->
     exists st1, apply_rule cfg rf cf (tokenize cfg rf cf d) (terminated cfg rf cf) n st 0 1 false = Ok (false, st1)
       /\ same_off pre1 pre2 c r bs li lv st st1) ->
  rule_adds (fun st => apply_rule cfg rf cf (tokenize cfg rf cf d) (terminated cfg rf cf) name st 0 1 false) pre1 pre2 (c :: r) bs li lv X ->
  rec_adds (tokenize cfg rf cf (S d)) pre1 pre2 (c :: r) bs li lv X.
Proof. intros Hn HC F S st O _. exact (tokenize_reach cfg rf cf pre1 pre2 c r bs li lv d name before rest X Hn HC F S st O). Qed.

Section QuoteStep.
Context (cfg : bcfg).
Context (pre1 pre2 : str) (c1 : Z) (r1 : str) (bs li lv : Z).
Notation L' := (c1 :: r1).
Notation L := (62 :: 32 :: c1 :: r1).
Notation off := (len pre1 + len pre2).

Lemma len_L : len L = len r1 + 3.
Proof. rewrite !len_cons. lia. Qed.

Lemma quote_src : (pre1 ++ pre2 ++ [62; 32]) ++ [] ++ L' ++ [10] = pre1 ++ pre2 ++ L ++ [10].
Proof. rewrite <- !app_assoc. reflexivity. Qed.
Lemma quote_off : len (pre1 ++ pre2 ++ [62; 32]) = off + 1 + 1.
Proof. rewrite !len_app. change (len [62; 32]) with 2. lia. Qed.
Lemma quote_len : len (pre1 ++ pre2 ++ [62; 32]) + len (@nil Z) + len L' = off + len L.
Proof. rewrite quote_off, len_L, len_cons. change (len (@nil Z)) with 0. lia. Qed.

Context (Hc1 : is_space c1 = false).

Lemma qs_strip st : off_line st pre1 pre2 L bs li lv ->
  bq_strip (b_src st) off (off + len L) (len pre2) bs = Ok (mkBq (off + 1 + 1) 0 0 (bs + len pre2 + 1 + 1) false).
Proof.
  intros H. rewrite (off_src st H), <- len_app. pose proof (len_nonneg (pre1 ++ pre2)). pose proof (len_nonneg r1).
  rewrite (bq_strip_prefix _ _ _ _ _ 0).
  - rewrite !len_cons. do 2 f_equal; lia.
  - lia.
  - replace (Z.to_nat (len (pre1 ++ pre2) + 1)) with (Z.to_nat (len (pre1 ++ pre2)) + 1)%nat by lia.
    exact (chars_at_app (pre1 ++ pre2) [62; 32] _ 1%nat 32 eq_refl).
  - intros i Hi. lia.
  - change (Z.of_nat 0) with 0. rewrite Z.add_0_r. exact (stop_at_app (pre1 ++ pre2) [62; 32] c1 _ _ Hc1).
  - rewrite !len_cons. lia.
  - repeat rewrite ?len_app, ?len_cons. change (len (@nil Z)) with 0. lia.
Qed.

(* the quote rule moves bMarks behind everything up to and including "> " and sets blkIndent to 0 (blockquote.py: the
   nested loop starts at column 0 of what is left), so nothing stays masked: (pre1, pre2) becomes (pre1 ++ pre2 ++ "> ", []);
   the columns passed over are kept in bsCount *)
Context (rec : rec_t) (X : list token).
Context (HREC : rec_adds rec (pre1 ++ pre2 ++ [62; 32]) [] L' (bs + len pre2 + 1 + 1) li (lv + 1) X).

Lemma r_blockquote_off term st : off_line st pre1 pre2 L bs li lv -> b_line st = 0 ->
  exists st', r_blockquote cfg rec term st 0 1 false = Ok (true, st')
    /\ off_line st' pre1 pre2 L bs li lv /\ b_tokens st' = b_tokens st ++ bq_open_at lv :: X ++ [bq_close_at lv]
    /\ b_env st' = b_env st /\ b_line st' = 1.
Proof.
  intros H L0. pose proof H as H'. destruct H' as (Hsrc & HbM & HeM & HtS & HsC & HbS & HbI & HlM & HlI & Hlv).
  unfold r_blockquote.
  rewrite (ls0 st H), (em0 st H), (cb0 cfg st H). cbn [bind]. cbv iota.
  pose proof (proj1 (head_char st H)) as CA.
  rewrite CA. cbv iota.
  rewrite HsC, HbS, !tb2. cbn [bind].
  rewrite (qs_strip st H). cbn [bind].
  unfold save_line. rewrite HbM, HbS, HtS, HsC, !tb2. cbn [bind o_b o_bs o_ts o_sc app].
  unfold apply_bq. rewrite HbM, HbS, HtS, HsC. cbn [q_bMark q_bsCount q_sCount q_tShift]. rewrite !tb_set2. cbn [bind].
  change (Z.to_nat (1 - 0)) with 1%nat. cbn [bq_loop]. change (negb (0 + 1 <? 1)) with true. cbv iota. cbn [bind].
  match goal with |- context [rec ?s5 0 (0 + 1)] => set (st5 := s5) end.
  change (0 + 1) with 1.
  assert (O5 : off_line st5 (pre1 ++ pre2 ++ [62; 32]) [] L' (bs + len pre2 + 1 + 1) li (lv + 1)).
  { unfold off_line, st5, bpush, st_parent. cbn. rewrite Hlv, HeM, HlM, HlI, Hsrc, quote_len, quote_off.
    repeat split; try reflexivity. symmetry. exact quote_src. }
  assert (L5 : b_line st5 = 0) by exact L0.
  (* the rest of the rule gets a name while the callback's answer is taken apart: every destruct copies the goal *)
  match goal with |- context [bind _ ?k] => set (K := k) end.
  destruct (HREC st5 O5 L5) as (st6 & TK & O6 & T6 & E6 & L6 & _).
  destruct O6 as (Hsrc6 & HbM6 & HeM6 & HtS6 & HsC6 & HbS6 & HbI6 & HlM6 & HlI6 & Hlv6).
  rewrite TK. cbn [bind]. unfold K.
  unfold restore_tables. cbn [o_b o_bs o_ts o_sc].
  cbn [b_bMarks b_tShift b_sCount b_bsCount bpush st_parent set b_tokens b_lineMax b_parentType b_blkIndent].
  rewrite HbM6, HtS6, HsC6, HbS6, !tb_set2. cbn [bind].
  eexists. split; [reflexivity|].
  change (-1 <? 0) with true. change (0 <? -1) with false. cbv iota.
  split; [|split; [|split]].
  - unfold off_line. cbn. rewrite Hsrc6, HeM6, HlI6, Hlv6, HlM, HbI, quote_len.
    repeat split; try reflexivity; [exact quote_src | lia].
  - cbn. rewrite T6, L6. unfold st5. cbn. rewrite Hlv6, Hlv.
    change (1 <? 0) with false. change (0 <? 1) with true. cbv iota.
    unfold set_map_at. rewrite <- !app_assoc. cbn [app]. rewrite update_nth_app.
    unfold bq_open_at, map_tok. rewrite set_map_twice. replace (lv + 1 - 1) with lv by lia. reflexivity.
  - cbn. rewrite E6. reflexivity.
  - cbn. exact L6.
Qed.

End QuoteStep.

Definition ul_open_at (m lv : Z) : token :=
  map_tok 0 1 (set_markup (set_level (set_block (new_token [98; 117; 108; 108; 101; 116; 95; 108; 105; 115; 116; 95; 111; 112; 101; 110] [117; 108] 1) true) lv) [m]).
Definition ul_close_at (m lv : Z) : token :=
  set_markup (set_level (set_block (new_token [98; 117; 108; 108; 101; 116; 95; 108; 105; 115; 116; 95; 99; 108; 111; 115; 101] [117; 108] (-1)) true) lv) [m].
Definition li_open_at (m lv : Z) : token :=
  map_tok 0 1 (set_markup (set_level (set_block (new_token s_list_item_open s_li 1) true) lv) [m]).
Definition li_close_at (m lv : Z) : token :=
  set_markup (set_level (set_block (new_token s_list_item_close s_li (-1)) true) lv) [m].

Definition ol_open_at (dl mv lv : Z) : token :=
  map_tok 0 1 (set_markup ((fun t => if negb (mv =? 1) then set_attrs t [(s_start, AInt mv)] else t)
                             (set_level (set_block (new_token [111; 114; 100; 101; 114; 101; 100; 95; 108; 105; 115; 116; 95; 111; 112; 101; 110] [111; 108] 1) true) lv)) [dl]).
Definition ol_close_at (dl lv : Z) : token :=
  set_markup (set_level (set_block (new_token [111; 114; 100; 101; 114; 101; 100; 95; 108; 105; 115; 116; 95; 99; 108; 111; 115; 101] [111; 108] (-1)) true) lv) [dl].

Definition sp (k : nat) : str := repeat 32 k.
Lemma len_sp k : len (sp k) = Z.of_nat k.
Proof. unfold len, sp. rewrite repeat_length. reflexivity. Qed.
Lemma sp_S k : sp (S k) = 32 :: sp k.
Proof. reflexivity. Qed.

Lemma py_idx_after_sp : forall k (P : str) c r, py_idx (P ++ sp k ++ c :: r) (len P + Z.of_nat k) = Ok c.
Proof.
  induction k as [|k IH]; intros P c r.
  - cbn [sp repeat app]. change (Z.of_nat 0) with 0. rewrite Z.add_0_r. apply py_idx_app.
  - rewrite sp_S. cbn [app].
    replace (P ++ 32 :: sp k ++ c :: r) with ((P ++ [32]) ++ sp k ++ c :: r) by (rewrite <- app_assoc; reflexivity).
    replace (len P + Z.of_nat (S k)) with (len (P ++ [32]) + Z.of_nat k) by (rewrite len_app; change (len [32]) with 1; lia).
    apply IH.
Qed.

Lemma cols_sp : forall k o, cols o (sp k) = o + Z.of_nat k.
Proof. induction k as [|k IH]; intros o; cbn [sp repeat cols]; [lia|]. change (32 =? 9) with false. cbv iota. fold (sp k). rewrite IH. lia. Qed.

Lemma list_blanks_spaces c1 (Hc : is_space c1 = false) k (P : str) r mx o bs : len P + Z.of_nat k < mx ->
  list_blanks (S (length (P ++ sp k ++ c1 :: r))) (P ++ sp k ++ c1 :: r) (len P) mx o bs = Ok (len P + Z.of_nat k, o + Z.of_nat k).
Proof.
  intros Hm. rewrite (list_blanks_exact (sp k)).
  - rewrite cols_sp, len_sp. do 2 f_equal. lia.
  - apply Forall_forall. intros x I. apply repeat_spec in I. left. exact I.
  - apply chars_at_app.
  - apply stop_at_app, Hc.
  - rewrite !app_length. cbn [length]. lia.
  - apply len_nonneg.
  - rewrite len_sp. lia.
Qed.

(* the list_item_open token: ordered items record the digits written *)
Definition li_open_g (isOrd : bool) (body : str) (mc lv : Z) : token :=
  (if isOrd then (fun x => set_info x body) else (fun x => x))
    (map_tok 0 1 (set_markup (set_level (set_block (new_token s_list_item_open s_li 1) true) lv) [mc])).
Lemma li_open_g_bullet m lv : li_open_g false [] m lv = li_open_at m lv.
Proof. reflexivity. Qed.

Definition list_open_g (isOrd : bool) (mc mv lv : Z) : token := if isOrd then ol_open_at mc mv lv else ul_open_at mc lv.
Definition list_close_g (isOrd : bool) (mc lv : Z) : token := if isOrd then ol_close_at mc lv else ul_close_at mc lv.

(* what markTightParagraphs, called as the list rule calls it behind the tokens A, makes of a one-item list o1 o2 X e1 e2
   at level lv: X becomes X' *)
Definition tight_to (o1 o2 e1 e2 : token) (lv : Z) (X X' : list token) : Prop := forall A,
  mark_tight (S (length (A ++ o1 :: o2 :: X ++ [e1; e2]))) (A ++ o1 :: o2 :: X ++ [e1; e2])
             (Z.of_nat (length A) + 2) (len (A ++ o1 :: o2 :: X ++ [e1; e2]) - 2) (lv + 2)
  = A ++ o1 :: o2 :: X' ++ [e1; e2].

Lemma list_open_g_map isOrd mc mv lv m : set_map (set_map (list_open_g isOrd mc mv lv) m) (Some (0, 1)) = list_open_g isOrd mc mv lv.
Proof. unfold list_open_g, ol_open_at, ul_open_at, map_tok. destruct isOrd; rewrite !set_map_twice; reflexivity. Qed.

(* one list marker (body ++ [mc]: a bullet, or digits and a delimiter) and its blanks in front of the rest of the line *)
Section ItemStep.
Context (cfg : bcfg).
Context (pre1 pre2 : str) (isOrd : bool) (body : str) (mc : Z) (k : nat) (c1 : Z) (r1 : str) (bs li lv : Z).
Notation L' := (c1 :: r1).
Notation L := (body ++ mc :: sp k ++ c1 :: r1).
Notation off := (len pre1 + len pre2).
Notation pam := (len pre1 + len pre2 + len body + 1).

Lemma item_src st : b_src st = pre1 ++ pre2 ++ L ++ [10] -> b_src st = ((pre1 ++ pre2) ++ body) ++ mc :: sp k ++ c1 :: r1 ++ [10].
Proof. intros ->. rewrite <- !app_assoc. cbn [app]. rewrite <- ?app_assoc. reflexivity. Qed.

Lemma item_len : len L = len body + len r1 + 2 + Z.of_nat k.
Proof. rewrite len_app, len_cons, len_app, len_sp, len_cons. lia. Qed.

Lemma item_body_slice st : b_src st = pre1 ++ pre2 ++ L ++ [10] -> slice (b_src st) off (pam - 1) = body.
Proof.
  intros ->. replace (pre1 ++ pre2 ++ (body ++ mc :: sp k ++ c1 :: r1) ++ [10]) with ((pre1 ++ pre2) ++ body ++ (mc :: sp k ++ c1 :: r1 ++ [10])).
  2:{ rewrite <- !app_assoc. cbn [app]. rewrite <- ?app_assoc. reflexivity. }
  replace (len pre1 + len pre2) with (len (pre1 ++ pre2)) by apply len_app.
  replace (len (pre1 ++ pre2) + len body + 1 - 1) with (len (pre1 ++ pre2) + len body) by lia.
  apply slice_app_mid.
Qed.

Notation ind := (len pre2 + len body + 1 + Z.of_nat k).
Notation here st := (off_line st pre1 pre2 L bs li (lv + 1)).
Notation inside st := (off_line st pre1 (pre2 ++ body ++ mc :: sp k) L' bs (len pre2) (lv + 2)).

Context (Hk : (1 <= k <= 4)%nat).
Context (Hc1 : is_space c1 = false).

Lemma item_reads_off st : here st -> item_reads st 0 0 pam = Ok (false, ind, len pre2, len pre2, [ind; 0], [ind; 0]).
Proof.
  intros (Hsrc & HbM & HeM & HtS & HsC & HbS & _).
  pose proof item_len as LL. pose proof (len_nonneg r1). pose proof (len_nonneg pre1). pose proof (len_nonneg pre2). pose proof (len_nonneg body).
  unfold item_reads, line_start. rewrite HeM, HsC, HbM, HtS, HbS, !tb2. cbn [bind]. cbv zeta.
  replace (len pre2 + pam - off) with (len pre2 + len body + 1) by lia.
  assert (LB : list_blanks (S (length (b_src st))) (b_src st) pam (off + len L) (len pre2 + len body + 1) bs = Ok (pam + Z.of_nat k, ind)).
  { rewrite (item_src st Hsrc).
    replace (((pre1 ++ pre2) ++ body) ++ mc :: sp k ++ c1 :: r1 ++ [10]) with ((((pre1 ++ pre2) ++ body) ++ [mc]) ++ sp k ++ c1 :: r1 ++ [10]) by (rewrite <- (app_assoc _ [mc]); reflexivity).
    replace pam with (len (((pre1 ++ pre2) ++ body) ++ [mc])) by (rewrite !len_app; reflexivity).
    rewrite (list_blanks_spaces c1 Hc1) by (rewrite LL, !len_app; change (len [mc]) with 1; lia).
    rewrite !len_app. change (len [mc]) with 1. do 2 f_equal; lia. }
  rewrite LB. cbn [bind]. rewrite !tb_set2. cbn [bind].
  assert (EM : (off + len L <=? pam + Z.of_nat k) = false) by lia. rewrite EM.
  assert (K4 : (4 <? ind - (len pre2 + len body + 1)) = false) by lia. rewrite K4.
  replace (len pre2 + len body + 1 + (ind - (len pre2 + len body + 1))) with ind by lia.
  replace (pam + Z.of_nat k - len pre1) with ind by lia. reflexivity.
Qed.

Lemma item_enter st : here st ->
  inside (item_st2 st isOrd mc 0 off pam ind [ind; 0] [ind; 0])
  /\ b_tokens (item_st2 st isOrd mc 0 off pam ind [ind; 0] [ind; 0]) = b_tokens st ++ [set_map (li_open_g isOrd body mc (lv + 1)) (Some (0, 0))].
Proof.
  intros (Hsrc & HbM & HeM & HtS & HsC & HbS & HbI & HlM & HlI & Hlv).
  unfold off_line, item_st2, item_st1, bpush.
  cbn [b_src b_bMarks b_eMarks b_tShift b_sCount b_bsCount b_blkIndent b_lineMax b_listIndent b_level b_tokens set].
  rewrite HbM, HeM, HbS, HbI, HlM, Hlv. change (1 <? 0) with false. change (0 <? 1) with true. cbv iota.
  rewrite !len_app, !len_cons, !len_app, len_sp, len_cons.
  repeat split; try reflexivity.
  - rewrite Hsrc, <- !app_assoc. cbn [app]. rewrite <- ?app_assoc. reflexivity.
  - f_equal. f_equal. lia.
  - f_equal; [|f_equal]; lia.
  - f_equal. lia.
  - f_equal. lia.
  - lia.
  - lia.
  - f_equal. f_equal. unfold li_open_g. destruct isOrd; [|reflexivity].
    rewrite (item_body_slice st Hsrc). reflexivity.
Qed.

Lemma item_leave st st3 : here st -> inside st3 ->
  here (item_st6 st st3 mc 0 [len pre2; 0] [len pre2; 0])
  /\ b_tokens (item_st6 st st3 mc 0 [len pre2; 0] [len pre2; 0])
     = set_map_at (b_tokens st3 ++ [li_close_at mc (lv + 1)]) (length (b_tokens st)) (fun _ => Some (0, b_line st3)).
Proof.
  intros (Hsrc & HbM & HeM & HtS & HsC & HbS & HbI & HlM & HlI & Hlv) (Hsrc3 & HbM3 & HeM3 & HtS3 & HsC3 & HbS3 & HbI3 & HlM3 & HlI3 & Hlv3).
  unfold off_line, item_st6, bpush. cbv zeta.
  cbn [b_src b_bMarks b_eMarks b_tShift b_sCount b_bsCount b_blkIndent b_lineMax b_listIndent b_level b_tokens b_line set].
  rewrite Hsrc3, HbM3, HeM3, HbS3, HlI3, HlM3, HlI, Hlv3. change (-1 <? 0) with true. change (0 <? -1) with false. cbv iota.
  rewrite !len_app, !len_cons, !len_app, len_sp, len_cons.
  repeat split; try reflexivity.
  - rewrite <- !app_assoc. cbn [app]. rewrite <- ?app_assoc. reflexivity.
  - f_equal. f_equal. lia.
  - f_equal; [|f_equal]; lia.
  - lia.
  - unfold li_close_at. replace (lv + 2 - 1) with (lv + 1) by lia. reflexivity.
Qed.

Lemma item_next_end term st6 nl el start : el <= nl -> item_next cfg term st6 isOrd mc nl el start = Ok (None, st6).
Proof. intros H. unfold item_next. assert (E : (el <=? nl) = true) by lia. rewrite E. reflexivity. Qed.

Context (rec : rec_t) (X : list token).
Context (HREC : rec_adds rec pre1 (pre2 ++ body ++ mc :: sp k) L' bs (len pre2) (lv + 2) X).

Lemma list_items_off f term st : here st -> b_line st = 0 ->
  exists st6, list_items cfg (S f) rec term st isOrd mc 0 0 1 pam off true false = Ok (1, true, st6)
    /\ here st6
    /\ b_tokens st6 = b_tokens st ++ li_open_g isOrd body mc (lv + 1) :: X ++ [li_close_at mc (lv + 1)]
    /\ b_env st6 = b_env st /\ b_line st6 = 1.
Proof.
  intros H L0. rewrite list_items_S. change (negb (0 <? 1)) with false. cbv iota.
  rewrite (item_reads_off st H). cbn [bind].
  destruct (item_enter st H) as [O2 T2].
  unfold item_body. cbn [bind]. cbv iota.
  destruct (HREC _ O2 L0) as (st3 & -> & O3 & T3 & E3 & L3 & TT3). cbn [bind].
  unfold item_back. rewrite L3. change (1 <? 1 - 0) with false. cbv iota. cbn [bind].
  pose proof O3 as (_ & _ & _ & HtS3 & HsC3 & _). rewrite HtS3, HsC3, !tb_set2. cbn [bind]. cbv zeta.
  destruct (item_leave st st3 H O3) as [O6 T6].
  rewrite item_next_end by lia. cbn [bind].
  rewrite TT3. cbn [negb orb]. cbv iota.
  eexists. split; [reflexivity|]. split; [exact O6|]. split; [|split; [exact E3 | exact L3]].
  rewrite T6, T3, T2, L3. unfold set_map_at. rewrite <- !app_assoc. cbn [app]. rewrite update_nth_app.
  rewrite set_map_twice. unfold li_open_g. destruct isOrd; reflexivity.
Qed.

Context (mv : Z).
Notation LO := (list_open_g isOrd mc mv lv).
Notation LI := (li_open_g isOrd body mc (lv + 1)).
Notation LC := (list_close_g isOrd mc lv).

Lemma list_head_off st :
  skip_ordered st 0 = Ok (if isOrd then pam else -1) -> (isOrd = false -> skip_bullet st 0 = Ok pam) ->
  (isOrd = true -> mv = int_of_digits body) -> off_line st pre1 pre2 L bs li lv ->
  list_head cfg st 0 false = Ok (Some (isOrd, pam, (if isOrd then mv else 0), mc, off)).
Proof.
  intros SO SB MV H. pose proof H as (Hsrc & _ & _ & _ & _ & _ & HbI & _).
  pose proof (len_nonneg pre1). pose proof (len_nonneg pre2). pose proof (len_nonneg body).
  unfold list_head. rewrite (cb0 cfg st H), (sc0 st H). cbn [bind]. cbv iota.
  rewrite HbI, Z.ltb_irrefl, Bool.andb_false_r. cbv iota zeta. cbn [andb].
  rewrite SO, (ls0 st H). cbn [bind].
  assert (E0 : (0 <=? pam) = true) by lia.
  assert (PM : py_idx (b_src st) (pam - 1) = Ok mc).
  { replace (pam - 1) with (off + len body) by lia. rewrite (item_src st Hsrc), <- !len_app. apply py_idx_app. }
  destruct isOrd.
  - rewrite E0, (item_body_slice st Hsrc), (MV eq_refl). cbn [bind]. rewrite (em0 st H). cbn [bind]. rewrite PM. reflexivity.
  - change (0 <=? -1) with false. cbv iota. rewrite (SB eq_refl). cbn [bind]. rewrite E0. cbn [bind].
    rewrite (em0 st H). cbn [bind]. rewrite PM. reflexivity.
Qed.

Lemma list_enter st : off_line st pre1 pre2 L bs li lv -> b_line st = 0 ->
  off_line (st_parent (list_st1 st isOrd mc (if isOrd then mv else 0) 0) nm_list) pre1 pre2 L bs li (lv + 1)
  /\ b_tokens (st_parent (list_st1 st isOrd mc (if isOrd then mv else 0) 0) nm_list) = b_tokens st ++ [set_map LO (Some (0, 0))]
  /\ b_env (st_parent (list_st1 st isOrd mc (if isOrd then mv else 0) 0) nm_list) = b_env st
  /\ b_line (st_parent (list_st1 st isOrd mc (if isOrd then mv else 0) 0) nm_list) = 0.
Proof.
  intros (Hsrc & HbM & HeM & HtS & HsC & HbS & HbI & HlM & HlI & Hlv) L0.
  unfold off_line, list_st1, list_open_g, bpush.
  destruct isOrd; cbn [b_src b_bMarks b_eMarks b_tShift b_sCount b_bsCount b_blkIndent b_lineMax b_listIndent b_level b_tokens b_env b_line st_parent set];
    rewrite Hlv; change (1 <? 0) with false; change (0 <? 1) with true; cbv iota; repeat split; try assumption; reflexivity.
Qed.

Lemma list_leave st st3 parent : off_line st3 pre1 pre2 L bs li (lv + 1) ->
  off_line (list_st5 st st3 isOrd mc 0 1 parent) pre1 pre2 L bs li lv
  /\ b_tokens (list_st5 st st3 isOrd mc 0 1 parent) = set_map_at (b_tokens st3 ++ [LC]) (length (b_tokens st)) (fun _ => Some (0, 1))
  /\ b_env (list_st5 st st3 isOrd mc 0 1 parent) = b_env st3 /\ b_line (list_st5 st st3 isOrd mc 0 1 parent) = 1.
Proof.
  intros (Hsrc3 & HbM3 & HeM3 & HtS3 & HsC3 & HbS3 & HbI3 & HlM3 & HlI3 & Hlv3).
  unfold off_line, list_st5, list_close_g, bpush. cbv zeta.
  destruct isOrd; cbn [b_src b_bMarks b_eMarks b_tShift b_sCount b_bsCount b_blkIndent b_lineMax b_listIndent b_level b_tokens b_env b_line st_parent st_line set];
    rewrite Hlv3; change (-1 <? 0) with true; change (0 <? -1) with false; cbv iota; replace (lv + 1 - 1) with lv by lia;
    repeat split; try assumption; reflexivity.
Qed.

(* X' is what markTightParagraphs makes of the item's tokens X; it stays abstract here so that the induction over
   the containers can supply it for a whole wrapped paragraph (mark_tight_wrap) *)
Context (X' : list token).
Context (HMT : tight_to LO LI (li_close_at mc (lv + 1)) LC lv X X').

Lemma r_list_step term st :
  skip_ordered st 0 = Ok (if isOrd then pam else -1) -> (isOrd = false -> skip_bullet st 0 = Ok pam) ->
  (isOrd = true -> mv = int_of_digits body) ->
  off_line st pre1 pre2 L bs li lv -> b_line st = 0 ->
  exists st', r_list cfg rec term st 0 1 false = Ok (true, st')
    /\ off_line st' pre1 pre2 L bs li lv
    /\ b_tokens st' = b_tokens st ++ LO :: LI :: X' ++ [li_close_at mc (lv + 1); LC]
    /\ b_env st' = b_env st /\ b_line st' = 1.
Proof.
  intros SO SB MV H L0. rewrite r_list_eq, (list_head_off st SO SB MV H). cbn [bind]. cbv iota.
  change (Z.to_nat (1 - 0)) with 1%nat.
  destruct (list_enter st H L0) as (O2 & T2 & E2 & L2).
  destruct (list_items_off 1 term _ O2 L2) as (st3 & -> & O3 & T3 & E3 & L3). cbn [bind].
  match goal with |- context [list_st5 st st3 isOrd mc 0 1 ?p] =>
    generalize (list_leave st st3 p O3); generalize (list_st5 st st3 isOrd mc 0 1 p) end.
  intros st5 (O5 & T5 & E5 & L5).
  eexists. split; [reflexivity|]. unfold list_st6.
  split; [exact O5|]. split; [|split; [exact (eq_trans E5 (eq_trans E3 E2)) | exact L5]].
  cbn [b_tokens set]. pose proof O5 as (_ & _ & _ & _ & _ & _ & _ & _ & _ & ->).
  rewrite T5, T3, T2. unfold set_map_at. rewrite <- !app_assoc. cbn [app]. rewrite update_nth_app, <- app_assoc. cbn [app]. cbv beta.
  rewrite list_open_g_map. exact (HMT (b_tokens st)).
Qed.

End ItemStep.

Section BulletStep.
Context (cfg : bcfg) (pre1 pre2 : str) (m : Z) (k : nat) (c1 : Z) (r1 : str) (bs li lv : Z).
Notation L' := (c1 :: r1).
Notation L := (m :: sp k ++ c1 :: r1).
Notation off := (len pre1 + len pre2).

Lemma bullet_src st : b_src st = pre1 ++ pre2 ++ L ++ [10] -> b_src st = (pre1 ++ pre2) ++ m :: sp k ++ c1 :: r1 ++ [10].
Proof. intros ->. rewrite <- !app_assoc. cbn [app]. rewrite <- ?app_assoc. reflexivity. Qed.

Lemma bullet_len : len L = len r1 + 2 + Z.of_nat k.
Proof. rewrite len_cons, len_app, len_sp, len_cons. lia. Qed.

Context (Hm : m = 42 \/ m = 45 \/ m = 43).

Lemma bullet_skip_ordered st : off_line st pre1 pre2 L bs li lv -> skip_ordered st 0 = Ok (-1).
Proof. apply skip_ordered_nondigit. unfold is_digit. lia. Qed.

Context (Hk : (1 <= k <= 4)%nat).

Lemma bullet_second st : b_src st = pre1 ++ pre2 ++ L ++ [10] -> py_idx (b_src st) (off + 1) = Ok 32.
Proof.
  intros H. rewrite (bullet_src st H), <- len_app. destruct k as [|k']; [destruct Hk as [K _]; inversion K|]. rewrite sp_S. cbn [app]. apply py_idx_app2.
Qed.

Lemma bullet_skip_bullet st : off_line st pre1 pre2 L bs li lv -> skip_bullet st 0 = Ok (off + len (@nil Z) + 1).
Proof.
  intros H. change (len (@nil Z)) with 0. rewrite Z.add_0_r. unfold skip_bullet. rewrite (ls0 st H), (em0 st H). cbn [bind].
  destruct H as (Hsrc & _). pose proof (bullet_second st Hsrc) as SEC. rewrite (bullet_src st Hsrc) in *. rewrite <- len_app, char_at_app.
  assert (E0 : negb ((m =? 42) || (m =? 45) || (m =? 43)) = false) by lia. rewrite E0. cbv iota.
  pose proof bullet_len. pose proof (len_nonneg r1).
  assert (E : (len (pre1 ++ pre2) + 1 <? len (pre1 ++ pre2) + len L) = true) by lia. rewrite E.
  rewrite len_app. rewrite SEC. cbn [bind]. reflexivity.
Qed.

Context (Hc9 : (c1 =? 9) = false) (Hc32 : (c1 =? 32) = false).
Context (rec : rec_t) (X : list token).
Context (HREC : rec_adds rec pre1 (pre2 ++ m :: sp k) L' bs (len pre2) (lv + 2) X).
Context (X' : list token).
Context (HMT : tight_to (ul_open_at m lv) (li_open_at m (lv + 1)) (li_close_at m (lv + 1)) (ul_close_at m lv) lv X X').

Lemma r_list_off term st : off_line st pre1 pre2 L bs li lv -> b_line st = 0 ->
  exists st', r_list cfg rec term st 0 1 false = Ok (true, st')
    /\ off_line st' pre1 pre2 L bs li lv
    /\ b_tokens st' = b_tokens st ++ ul_open_at m lv :: li_open_at m (lv + 1) :: X' ++ [li_close_at m (lv + 1); ul_close_at m lv]
    /\ b_env st' = b_env st /\ b_line st' = 1.
Proof.
  intros H L0.
  assert (Hc1 : is_space c1 = false) by (unfold is_space; rewrite Hc9, Hc32; reflexivity).
  exact (r_list_step cfg pre1 pre2 false [] m k c1 r1 bs li lv Hk Hc1 rec X HREC 0 X' HMT term st
           (bullet_skip_ordered st H) (fun _ => bullet_skip_bullet st H) (fun E => ltac:(discriminate E)) H L0).
Qed.

End BulletStep.

(* at most nine digits (list.py gives up at the tenth); skip_ordered runs the scan with fuel 12 *)
Lemma ordered_digits_run dl (Hdl : dl = 46 \/ dl = 41) : forall ds (P : str) r fuel start mx,
  Forall (fun d => is_digit d = true) ds -> (length ds < fuel)%nat ->
  len P + len ds - start < 10 -> len P + len ds + 1 < mx ->
  ordered_digits fuel (P ++ ds ++ dl :: 32 :: r) start (len P) mx = Ok (len P + len ds + 1).
Proof.
  induction ds as [|d ds IH]; intros P r fuel start mx FD Hf H10 Hmx; (destruct fuel as [|f]; [cbn [length] in Hf; lia|]); cbn [ordered_digits app].
  - change (len (@nil Z)) with 0 in *. assert (E : (mx <=? len P) = false) by lia. rewrite E.
    rewrite py_idx_app. cbn [bind].
    assert (ND : is_digit dl = false) by (unfold is_digit; lia). rewrite ND.
    assert (DL : (dl =? 41) || (dl =? 46) = true) by lia. rewrite DL.
    assert (E2 : (len P + 1 <? mx) = true) by lia. rewrite E2.
    rewrite py_idx_app2. cbn [bind]. change (is_space 32) with true. cbv iota. f_equal. lia.
  - rewrite len_cons in *. pose proof (len_nonneg ds). assert (E : (mx <=? len P) = false) by lia. rewrite E.
    rewrite py_idx_app. cbn [bind]. inversion FD as [|? ? Hd FD']; subst. rewrite Hd.
    assert (E10 : (10 <=? len P + 1 - start) = false) by lia. rewrite E10.
    replace (P ++ d :: ds ++ dl :: 32 :: r) with ((P ++ [d]) ++ ds ++ dl :: 32 :: r) by (rewrite <- app_assoc; reflexivity).
    replace (len P + 1) with (len (P ++ [d])) by (rewrite len_app; reflexivity).
    rewrite IH; [rewrite len_app; change (len [d]) with 1; f_equal; lia | exact FD' | cbn [length] in Hf; lia
                | rewrite len_app; change (len [d]) with 1; lia | rewrite len_app; change (len [d]) with 1; lia].
Qed.

Section OrderedStep.
Context (cfg : bcfg) (rf cf : str -> str).
Context (pre1 pre2 : str) (d0 : Z) (ds : str) (dl : Z) (k : nat) (c1 : Z) (r1 : str) (bs li lv : Z).
Notation body := (d0 :: ds).
Notation L' := (c1 :: r1).
Notation L := (body ++ dl :: sp k ++ c1 :: r1).
Notation off := (len pre1 + len pre2).
Notation mv := (int_of_digits body).

Lemma ordered_src st : b_src st = pre1 ++ pre2 ++ L ++ [10] -> b_src st = (pre1 ++ pre2) ++ d0 :: ds ++ dl :: sp k ++ c1 :: r1 ++ [10].
Proof. intros ->. rewrite <- !app_assoc. cbn [app]. rewrite <- ?app_assoc. reflexivity. Qed.

Lemma ordered_len : len L = len ds + len r1 + 3 + Z.of_nat k.
Proof. rewrite len_app, !len_cons, len_app, len_sp, len_cons. lia. Qed.

Context (Hd0 : is_digit d0 = true) (Hds : Forall (fun d => is_digit d = true) ds) (Hlen : len ds <= 8).
Context (Hdl : dl = 46 \/ dl = 41) (Hk : (1 <= k <= 4)%nat).

Lemma ordered_skip_ordered st : off_line st pre1 pre2 L bs li lv -> skip_ordered st 0 = Ok (off + len body + 1).
Proof.
  intros H. unfold skip_ordered. rewrite (ls0 st H), (em0 st H). cbn [bind].
  pose proof ordered_len as LL. pose proof (len_nonneg ds). pose proof (len_nonneg r1).
  assert (E : (off + len L <=? off + 1) = false) by lia. rewrite E.
  destruct H as (Hsrc & _). rewrite (ordered_src st Hsrc), <- len_app, py_idx_app. cbn [bind]. rewrite Hd0. cbn [negb]. cbv iota.
  destruct k as [|k']; [lia|]. rewrite sp_S. cbn [app].
  replace ((pre1 ++ pre2) ++ d0 :: ds ++ dl :: 32 :: sp k' ++ c1 :: r1 ++ [10]) with (((pre1 ++ pre2) ++ [d0]) ++ ds ++ dl :: 32 :: sp k' ++ c1 :: r1 ++ [10])
    by (rewrite <- app_assoc; reflexivity).
  replace (len (pre1 ++ pre2) + 1) with (len ((pre1 ++ pre2) ++ [d0])) by (rewrite len_app; reflexivity).
  rewrite (ordered_digits_run dl Hdl); try assumption.
  - rewrite !len_app, !len_cons. change (len (@nil Z)) with 0. f_equal. lia.
  - unfold len in Hlen. lia.
  - rewrite !len_app. change (len [d0]) with 1. lia.
  - clear LL E. repeat (rewrite ?len_app, ?len_cons, ?len_sp). change (len (@nil Z)) with 0. lia.
Qed.

Lemma ordered_before_fail rec0 term n st : n = nm_table \/ n = nm_code \/ n = nm_fence \/ n = nm_blockquote \/ n = nm_hr ->
  off_line st pre1 pre2 L bs li lv -> apply_rule cfg rf cf rec0 term n st 0 1 false = Ok (false, st).
Proof.
  intros N H. clear - Hd0 N H. unfold is_digit in Hd0.
  destruct N as [->|[->|[->|[->| ->]]]];
    (refine (apply_rule_unclaimed_eq cfg rf cf pre1 pre2 d0 _ bs li lv rec0 term _ st _ _ H); [|reflexivity]);
    rewrite ?claims_table, ?claims_code, ?claims_fence, ?claims_blockquote, ?claims_hr; lia.
Qed.

Context (Hc9 : (c1 =? 9) = false) (Hc32 : (c1 =? 32) = false).
Context (rec : rec_t) (X : list token).
Context (HREC : rec_adds rec pre1 (pre2 ++ body ++ dl :: sp k) L' bs (len pre2) (lv + 2) X).
Context (X' : list token).
Context (HMT : tight_to (ol_open_at dl mv lv) (li_open_g true body dl (lv + 1)) (li_close_at dl (lv + 1)) (ol_close_at dl lv) lv X X').

Lemma r_list_off_ordered term st : off_line st pre1 pre2 L bs li lv -> b_line st = 0 ->
  exists st', r_list cfg rec term st 0 1 false = Ok (true, st')
    /\ off_line st' pre1 pre2 L bs li lv
    /\ b_tokens st' = b_tokens st ++ ol_open_at dl mv lv :: li_open_g true body dl (lv + 1) :: X' ++ [li_close_at dl (lv + 1); ol_close_at dl lv]
    /\ b_env st' = b_env st /\ b_line st' = 1.
Proof.
  intros H L0.
  assert (Hc1 : is_space c1 = false) by (unfold is_space; rewrite Hc9, Hc32; reflexivity).
  exact (r_list_step cfg pre1 pre2 true body dl k c1 r1 bs li lv Hk Hc1 rec X HREC mv X' HMT term st
           (ordered_skip_ordered st H) (fun E => ltac:(discriminate E)) (fun _ => eq_refl) H L0).
Qed.

End OrderedStep.

Lemma hr_scan_stop mk : forall (a P : str) c rest fuel mx cnt,
  Forall (fun x => x = mk \/ is_space x = true) a -> c <> mk -> is_space c = false ->
  len P + len a < mx -> (length a < fuel)%nat ->
  hr_scan fuel (P ++ a ++ c :: rest) (len P) mx mk cnt = Ok None.
Proof.
  induction a as [|x a IH]; intros P c rest fuel mx cnt Fa Hc Hs Hm Hf; (destruct fuel as [|f]; [cbn [length] in Hf; lia|]); cbn [hr_scan app].
  - change (len (@nil Z)) with 0 in Hm. assert (E : negb (len P <? mx) = false) by lia. rewrite E.
    rewrite py_idx_app. cbn [bind]. assert (N : (c =? mk) = false) by lia. rewrite N, Hs. reflexivity.
  - rewrite len_cons in Hm. pose proof (len_nonneg a). assert (E : negb (len P <? mx) = false) by lia. rewrite E.
    rewrite py_idx_app. cbn [bind]. inversion Fa as [|? ? Hx Fa']; subst.
    assert (C : negb (x =? mk) && negb (is_space x) = false).
    { destruct Hx as [->|Hx]; [rewrite Z.eqb_refl; reflexivity | rewrite Hx; apply Bool.andb_false_r]. }
    rewrite C.
    replace (P ++ x :: a ++ c :: rest) with ((P ++ [x]) ++ a ++ c :: rest) by (rewrite <- app_assoc; reflexivity).
    replace (len P + 1) with (len (P ++ [x])) by (rewrite len_app; reflexivity).
    apply IH; try assumption; [rewrite len_app; change (len [x]) with 1; lia | cbn [length] in Hf; lia].
Qed.

Section BulletBefore.
Context (cfg : bcfg) (rf cf : str -> str).
Context (pre1 pre2 : str) (m : Z) (k : nat) (c1 : Z) (r1 : str) (bs li lv : Z).
Context (a : str) (c : Z) (b : str).
Context (HL' : c1 :: r1 = a ++ c :: b) (Ha : Forall (fun x => x = m \/ is_space x = true) a) (Hc : c <> m) (Hcs : is_space c = false).
Notation L := (m :: sp k ++ c1 :: r1).

Lemma bullet_hr_fail st : off_line st pre1 pre2 L bs li lv -> r_hr cfg st 0 1 false = Ok (false, st).
Proof.
  intros H. unfold r_hr. rewrite (ls0 st H), (em0 st H), (cb0 cfg st H). cbn [bind]. cbv iota.
  destruct H as (Hsrc & _). rewrite (bullet_src pre1 pre2 m k c1 r1 st Hsrc), <- len_app, char_at_app.
  destruct (negb ((m =? 42) || (m =? 45) || (m =? 95))) eqn:EM; [reflexivity|].
  assert (SRC : (pre1 ++ pre2) ++ m :: sp k ++ c1 :: r1 ++ [10] = ((pre1 ++ pre2) ++ [m]) ++ (sp k ++ a) ++ c :: b ++ [10]).
  { change (c1 :: r1 ++ [10]) with ((c1 :: r1) ++ [10]). rewrite HL'. rewrite <- !app_assoc. cbn [app]. rewrite <- ?app_assoc. cbn [app]. reflexivity. }
  rewrite SRC.
  replace (len (pre1 ++ pre2) + 1) with (len ((pre1 ++ pre2) ++ [m])) by (rewrite len_app; reflexivity).
  rewrite hr_scan_stop; [reflexivity| | exact Hc | exact Hcs | |].
  - apply Forall_app. split; [|exact Ha]. unfold sp. apply Forall_forall. intros x I. apply repeat_spec in I. subst x. right. reflexivity.
  - assert (LL : len (c1 :: r1) = len a + 1 + len b) by (rewrite HL', len_app, len_cons; lia).
    rewrite len_cons in LL. rewrite !len_app, !len_cons, !len_app, !len_cons, len_sp. change (len (@nil Z)) with 0. pose proof (len_nonneg b). lia.
  - rewrite ?app_length. cbn [length]. rewrite ?app_length. cbn [length]. rewrite ?app_length. cbn [length]. lia.
Qed.

Context (Hm : m = 42 \/ m = 45 \/ m = 43).

Lemma bullet_before_fail rec term n st : n = nm_table \/ n = nm_code \/ n = nm_fence \/ n = nm_blockquote \/ n = nm_hr ->
  off_line st pre1 pre2 L bs li lv -> apply_rule cfg rf cf rec term n st 0 1 false = Ok (false, st).
Proof.
  intros N H. destruct N as [N|[N|[N|[N| ->]]]]; [| | | | apply bullet_hr_fail, H];
    (refine (apply_rule_unclaimed_eq cfg rf cf pre1 pre2 m _ bs li lv rec term n st _ _ H); subst n; [|reflexivity];
     rewrite ?claims_table, ?claims_code, ?claims_fence, ?claims_blockquote; lia).
Qed.

End BulletBefore.

Definition s_para_open : str := [112; 97; 114; 97; 103; 114; 97; 112; 104; 95; 111; 112; 101; 110].
(* markTightParagraphs hides the paragraph_open tokens of level lv + 2, the level inside the items of a list at lv, and
   passes over every other token: [NP lvl t] says that t is passed over *)
Definition NP (lvl : Z) (t : token) : Prop := (tlevel t =? lvl) && str_eqb (ttype t) s_para_open = false.

Lemma mark_tight_noop lvl : forall (Q P R : list token) fuel i n,
  Forall (NP lvl) Q -> i = Z.of_nat (length P) -> n = Z.of_nat (length P + length Q) -> (length Q < fuel)%nat ->
  mark_tight fuel (P ++ Q ++ R) i n lvl = P ++ Q ++ R.
Proof.
  induction Q as [|q Q IH]; intros P R fuel i n F Hi Hn Hf; (destruct fuel as [|f]; [cbn [length] in Hf; lia|]); unfold mark_tight; fold mark_tight.
  - cbn [length] in Hn. assert (E : negb (i <? n) = true) by lia. rewrite E. reflexivity.
  - cbn [length] in Hn, Hf. assert (E : negb (i <? n) = false) by lia. rewrite E.
    rewrite Hi, Nat2Z.id. cbn [app]. rewrite nth_error_app_mid.
    inversion F as [|? ? Hq F']; subst. unfold NP in Hq. change [112; 97; 114; 97; 103; 114; 97; 112; 104; 95; 111; 112; 101; 110] with s_para_open. rewrite Hq.
    replace (P ++ q :: Q ++ R) with ((P ++ [q]) ++ Q ++ R) by (rewrite <- app_assoc; reflexivity).
    apply IH; [exact F' | rewrite app_length; cbn [length]; lia | rewrite app_length; cbn [length]; lia | lia].
Qed.

Lemma mark_tight_para s lv (o1 o2 e1 e2 : token) :
  tight_to o1 o2 e1 e2 lv (para_tokens s (lv + 2)) (hide_para (para_tokens s (lv + 2))).
Proof.
  intros A.
  unfold para_tokens, hide_para. cbn [app].
  set (po := map_tok 0 1 (set_level (set_block (new_token [112; 97; 114; 97; 103; 114; 97; 112; 104; 95; 111; 112; 101; 110] [112] 1) true) (lv + 2))).
  set (inl := set_children (map_tok 0 1 (set_content (set_level (set_block (new_token s_inline [] 0) true) (lv + 2 + 1)) s)) (Some [])).
  set (pc := set_level (set_block (new_token [112; 97; 114; 97; 103; 114; 97; 112; 104; 95; 99; 108; 111; 115; 101] [112] (-1)) true) (lv + 2)).
  set (rest := [o1; o2; po; inl; pc; e1; e2]).
  change (o1 :: o2 :: po :: inl :: pc :: [e1; e2]) with rest.
  assert (LN : len (A ++ rest) - 2 = Z.of_nat (length A) + 5) by (unfold len; rewrite app_length; change (length rest) with 7%nat; lia).
  rewrite LN. rewrite app_length. change (length rest) with 7%nat.
  replace (S (length A + 7)) with (S (S (length A + 6))) by lia. unfold mark_tight; fold mark_tight.
  assert (E1 : negb (Z.of_nat (length A) + 2 <? Z.of_nat (length A) + 5) = false) by lia. rewrite E1.
  replace (Z.to_nat (Z.of_nat (length A) + 2)) with (length A + 2)%nat by lia.
  rewrite nth_error_app2 by lia. replace (length A + 2 - length A)%nat with 2%nat by lia. cbn [nth_error rest].
  assert (T : (tlevel po =? lv + 2) && str_eqb (ttype po) [112; 97; 114; 97; 103; 114; 97; 112; 104; 95; 111; 112; 101; 110] = true).
  { unfold po. cbn. rewrite Z.eqb_refl. reflexivity. }
  rewrite T.
  assert (E2 : negb (Z.of_nat (length A) + 2 + 3 <? Z.of_nat (length A) + 5) = true) by lia. rewrite E2.
  replace (Z.to_nat (Z.of_nat (length A) + 2 + 2)) with (length A + 4)%nat by lia.
  rewrite !update_nth_tok_app_r. reflexivity.
Qed.

(* a block quote marker "> ", a bullet marker m followed by k spaces, or an ordered marker: digits d0 ds, a delimiter
   '.' or ')', k spaces.  The bounds of [okc] are those of the list rule: more than four columns after the marker make
   the content an indented code block; ordered_digits gives up at the tenth digit.  [weight]: the levels a container
   opens before it calls the nested loop, which stops nesting at maxNesting (quote 1, list and item 2). *)
Inductive ctr := CQ | CI (m : Z) (k : nat) | CO (d0 : Z) (ds : str) (dl : Z) (k : nat).
Definition okc (c : ctr) : Prop :=
  match c with
  | CQ => True
  | CI m k => (m = 42 \/ m = 45 \/ m = 43) /\ (1 <= k <= 4)%nat
  | CO d0 ds dl k => is_digit d0 = true /\ Forall (fun d => is_digit d = true) ds /\ len ds <= 8 /\ (dl = 46 \/ dl = 41) /\ (1 <= k <= 4)%nat
  end.
Definition cpre (c : ctr) : str := match c with CQ => [62; 32] | CI m k => m :: sp k | CO d0 ds dl k => (d0 :: ds) ++ dl :: sp k end.
Fixpoint prefix (cs : list ctr) : str := match cs with [] => [] | c :: r => cpre c ++ prefix r end.
Fixpoint weight (cs : list ctr) : Z := match cs with [] => 0 | CQ :: r => 1 + weight r | CI _ _ :: r => 2 + weight r | CO _ _ _ _ :: r => 2 + weight r end.

(* the chain reaches the rule of container c with nothing before it that could claim a line starting with its marker *)
Definition reaches (cfg : bcfg) (c : ctr) : Prop :=
  match c with
  | CQ => exists RA R, c_rules cfg = RA ++ nm_blockquote :: R /\ Forall (fun n => n = nm_table \/ n = nm_code \/ n = nm_fence) RA
  | _ => exists RL R, c_rules cfg = RL ++ nm_list :: R
                      /\ Forall (fun n => n = nm_table \/ n = nm_code \/ n = nm_fence \/ n = nm_blockquote \/ n = nm_hr) RL
  end.

(* the characters of the markers: none is a tab, a line end or a control character *)
Definition marker_char (x : Z) : Prop := x = 62 \/ x = 32 \/ x = 42 \/ x = 45 \/ x = 43 \/ x = 46 \/ x = 41 \/ 48 <= x <= 57.

Lemma cpre_chars c : okc c -> Forall marker_char (cpre c).
Proof.
  assert (SP : forall k, Forall marker_char (sp k))
    by (intros k; apply Forall_forall; intros x I; apply repeat_spec in I; unfold marker_char; lia).
  destruct c as [|m k|d0 ds dl k]; cbn [okc cpre].
  - intros _. repeat constructor; unfold marker_char; lia.
  - intros [Hm _]. constructor; [unfold marker_char; lia | apply SP].
  - intros (Hd0 & Hds & _ & Hdl & _). unfold is_digit in Hd0. constructor; [unfold marker_char; lia|]. apply Forall_app. split.
    + eapply Forall_impl; [|exact Hds]. intros x Hx. unfold is_digit in Hx. unfold marker_char. lia.
    + constructor; [unfold marker_char; lia | apply SP].
Qed.

Lemma prefix_chars : forall cs, Forall okc cs -> Forall marker_char (prefix cs).
Proof. induction 1 as [|c cs OK _ IH]; cbn [prefix]; [constructor | apply Forall_app; split; [apply cpre_chars, OK | exact IH]]. Qed.

Lemma weight_nonneg cs : 0 <= weight cs.
Proof. induction cs as [|[| |] cs IH]; cbn [weight]; lia. Qed.

(* the chain of the commonmark presets:
   table/code/fence*  blockquote  table/code/fence/hr*  list  (rules other than paragraph)*  paragraph ... *)
Section StdChain.
Context (cfg : bcfg).
Context (RA RB RC RD : list str).
Context (HC : c_rules cfg = RA ++ nm_blockquote :: RB ++ nm_list :: RC ++ nm_paragraph :: RD).
Context (HA : Forall (fun n => n = nm_table \/ n = nm_code \/ n = nm_fence) RA).
Context (HB : Forall (fun n => n = nm_table \/ n = nm_code \/ n = nm_fence \/ n = nm_hr) RB).
Context (HCn : Forall (fun n => str_eqb n nm_paragraph = false) RC).

Lemma std_paragraph : c_rules cfg = (RA ++ nm_blockquote :: RB ++ nm_list :: RC) ++ nm_paragraph :: RD
  /\ Forall (fun n => str_eqb n nm_paragraph = false) (RA ++ nm_blockquote :: RB ++ nm_list :: RC).
Proof.
  split; [rewrite HC, <- !app_assoc; cbn [app]; rewrite <- !app_assoc; reflexivity|].
  apply Forall_app. split.
  - eapply Forall_impl; [|exact HA]. intros n [->|[->| ->]]; reflexivity.
  - constructor; [reflexivity|]. apply Forall_app. split.
    + eapply Forall_impl; [|exact HB]. intros n [->|[->|[->| ->]]]; reflexivity.
    + constructor; [reflexivity | exact HCn].
Qed.

Lemma std_reaches cs : Forall (reaches cfg) cs.
Proof.
  apply Forall_forall. intros c _.
  assert (Q : reaches cfg CQ) by (exists RA, (RB ++ nm_list :: RC ++ nm_paragraph :: RD); split; [exact HC | exact HA]).
  assert (L : reaches cfg (CI 0 0)).
  { exists (RA ++ nm_blockquote :: RB), (RC ++ nm_paragraph :: RD). split; [rewrite HC, <- app_assoc; reflexivity|].
    apply Forall_app. split; [eapply Forall_impl; [|exact HA]; cbv beta; tauto|].
    constructor; [tauto|]. eapply Forall_impl; [|exact HB]. cbv beta. tauto. }
  destruct c; [exact Q | exact L | exact L].
Qed.

End StdChain.

Section Nest.
Context (cfg : bcfg) (rf cf : str -> str).
Context (s : str) (Hs : line_ok s).

(* the tokens: the paragraph of s wrapped container by container; [hid]: the paragraph sits directly in a tight item *)
Fixpoint wrap (cs : list ctr) (lv : Z) (hid : bool) : list token :=
  match cs with
  | [] => if hid then hide_para (para_tokens s lv) else para_tokens s lv
  | CQ :: r => bq_open_at lv :: wrap r (lv + 1) false ++ [bq_close_at lv]
  | CI m _ :: r => ul_open_at m lv :: li_open_at m (lv + 1) :: wrap r (lv + 2) true ++ [li_close_at m (lv + 1); ul_close_at m lv]
  | CO d0 ds dl _ :: r => ol_open_at dl (int_of_digits (d0 :: ds)) lv :: li_open_g true (d0 :: ds) dl (lv + 1) :: wrap r (lv + 2) true
                          ++ [li_close_at dl (lv + 1); ol_close_at dl lv]
  end.

Lemma wrap_hid c r lv h : wrap (c :: r) lv h = wrap (c :: r) lv false.
Proof. destruct c; reflexivity. Qed.

Lemma rest_head cs : Forall okc cs -> exists c1 r1, prefix cs ++ s = c1 :: r1 /\ is_space c1 = false /\ (c1 =? 9) = false /\ (c1 =? 32) = false.
Proof.
  intros F. destruct cs as [|[|m k|d0 ds dl k] cs]; cbn [prefix cpre app]; rewrite <- ?app_assoc; cbn [app].
  - destruct Hs as [(c0 & body & E & L & _) _]. destruct (letter_not_space c0 L) as [Hsp _].
    exists c0, body. split; [exact E|]. split; [exact Hsp|]. unfold letter in L. split; lia.
  - eexists _, _. split; [reflexivity|]. repeat split.
  - inversion F as [|? ? OK _]; subst. destruct OK as [Hm _]. eexists _, _. split; [reflexivity|]. unfold is_space. repeat split; lia.
  - inversion F as [|? ? OK _]; subst. destruct OK as [Hd _]. unfold is_digit in Hd. eexists _, _. split; [reflexivity|]. unfold is_space. repeat split; lia.
Qed.

(* behind a bullet the line has a character that is neither that bullet nor a blank, so  * * foo  is no thematic break *)
Lemma rest_stops_hr mk : mk = 42 \/ mk = 45 \/ mk = 43 -> forall cs, Forall okc cs ->
  exists a c b, prefix cs ++ s = a ++ c :: b /\ Forall (fun x => x = mk \/ is_space x = true) a /\ c <> mk /\ is_space c = false.
Proof.
  intros Hmk. induction cs as [|[|m k|d0 ds dl k] cs IH]; intros F; cbn [prefix cpre app]; rewrite <- ?app_assoc; cbn [app].
  - destruct Hs as [(c0 & body & E & L & _) _]. destruct (letter_not_space c0 L) as [Hsp _].
    exists [], c0, body. split; [exact E|]. split; [constructor|]. split; [unfold letter in L; lia | exact Hsp].
  - exists [], 62, (32 :: prefix cs ++ s). split; [reflexivity|]. split; [constructor|]. split; [lia | reflexivity].
  - inversion F as [|? ? OK F']; subst. destruct OK as [Hm _].
    destruct (Z.eq_dec m mk) as [->|NE].
    + destruct (IH F') as (a & c & b & E & Fa & Hc & Hcs). exists (mk :: sp k ++ a), c, b. rewrite E. split; [cbn [app]; rewrite <- ?app_assoc; reflexivity|].
      split; [|split; assumption]. constructor; [left; reflexivity|]. apply Forall_app. split; [|exact Fa].
      unfold sp. apply Forall_forall. intros x I. apply repeat_spec in I. subst x. right. reflexivity.
    + exists [], m, (sp k ++ prefix cs ++ s). split; [reflexivity|]. split; [constructor|]. split; [exact NE | unfold is_space; lia].
  - inversion F as [|? ? OK _]; subst. destruct OK as [Hd _]. unfold is_digit in Hd.
    exists [], d0, (ds ++ dl :: sp k ++ prefix cs ++ s). split; [reflexivity|]. split; [constructor|]. split; [lia | unfold is_space; lia].
Qed.

Lemma rest_nolf : forall cs, Forall okc cs -> forall x, In x (prefix cs ++ s) -> x <> 10.
Proof.
  intros cs F x I. apply in_app_or in I. destruct I as [I|I].
  - pose proof (prefix_chars cs F) as P. rewrite Forall_forall in P. specialize (P x I). unfold marker_char in P. lia.
  - destruct Hs as [(c0 & body & E & L & B) _]. destruct (letter_not_space c0 L) as [_ Hn].
    rewrite E in I. destruct I as [<-|I]; [exact Hn | exact (B x I)].
Qed.

Lemma NP_level t lvl : lvl <> tlevel t -> NP lvl t.
Proof. intros H. unfold NP. assert (E : (tlevel t =? lvl) = false) by lia. rewrite E. reflexivity. Qed.
Lemma NP_type t lvl : str_eqb (ttype t) s_para_open = false -> NP lvl t.
Proof. intros H. unfold NP. rewrite H. apply Bool.andb_false_r. Qed.

Lemma wrap_np : forall cs lv h lvl, lvl < lv -> Forall (NP lvl) (wrap cs lv h).
Proof.
  induction cs as [|[|m k|d0 ds dl k] cs IH]; intros lv h lvl Hl; cbn [wrap].
  - destruct h; unfold hide_para, para_tokens; repeat constructor; apply NP_level; cbn; lia.
  - constructor; [apply NP_level; cbn; lia|]. apply Forall_app. split; [apply IH; lia | repeat constructor; apply NP_level; cbn; lia].
  - constructor; [apply NP_level; cbn; lia|]. constructor; [apply NP_level; cbn; lia|]. apply Forall_app. split; [apply IH; lia | repeat constructor; apply NP_level; cbn; lia].
  - constructor; [apply NP_level; unfold ol_open_at; destruct (negb (int_of_digits (d0 :: ds) =? 1)); cbn; lia|].
    constructor; [apply NP_level; cbn; lia|]. apply Forall_app. split; [apply IH; lia | repeat constructor; apply NP_level; cbn; lia].
Qed.

Lemma wrap_np_head c cs lv : Forall (NP lv) (wrap (c :: cs) lv false).
Proof.
  destruct c; cbn [wrap].
  - constructor; [apply NP_type; reflexivity|]. apply Forall_app. split; [apply wrap_np; lia | repeat constructor; apply NP_type; reflexivity].
  - constructor; [apply NP_type; reflexivity|]. constructor; [apply NP_type; reflexivity|]. apply Forall_app.
    split; [apply wrap_np; lia | repeat constructor; apply NP_type; reflexivity].
  - constructor; [apply NP_type; unfold ol_open_at; destruct (negb (int_of_digits (d0 :: ds) =? 1)); reflexivity|]. constructor; [apply NP_type; reflexivity|]. apply Forall_app.
    split; [apply wrap_np; lia | repeat constructor; apply NP_type; reflexivity].
Qed.

Lemma mark_tight_wrap (o1 o2 e1 e2 : token) cs lv :
  tight_to o1 o2 e1 e2 lv (wrap cs (lv + 2) false) (wrap cs (lv + 2) true).
Proof.
  intros A.
  destruct cs as [|c cs]; [apply mark_tight_para|].
  rewrite (wrap_hid c cs (lv + 2) true).
  set (Q := wrap (c :: cs) (lv + 2) false).
  replace (A ++ o1 :: o2 :: Q ++ [e1; e2]) with ((A ++ [o1; o2]) ++ Q ++ [e1; e2]) by (rewrite <- app_assoc; reflexivity).
  apply mark_tight_noop.
  - apply wrap_np_head.
  - rewrite app_length. cbn [length]. lia.
  - unfold len. rewrite !app_length. cbn [length]. lia.
  - rewrite !app_length. cbn [length]. lia.
Qed.

(* The nested block loop on the rest of a line behind any containers.  Induction on the containers: the rule of the
   first one is reached ([reaches]), strips its marker and calls the loop one container further in; d is the depth fuel
   of tokenize, one per container. *)
Theorem nest_gen : forall rpre rpost, c_rules cfg = rpre ++ nm_paragraph :: rpost ->
  Forall (fun n => str_eqb n nm_paragraph = false) rpre ->
  forall cs, Forall okc cs -> Forall (reaches cfg) cs -> forall pre1 pre2 bs li lv d,
  (forall x, In x pre2 -> x <> 9) -> lv + weight cs < c_maxNesting cfg -> (length cs <= d)%nat ->
  rec_adds (tokenize cfg rf cf (S d)) pre1 pre2 (prefix cs ++ s) bs li lv (wrap cs lv false).
Proof.
  intros rpre rpost HR Hpre.
  induction cs as [|c cs IH]; intros FO FR pre1 pre2 bs li lv d Hp2 Hw Hd.
  - cbn [prefix app wrap] in *. cbn [weight] in Hw. intros st O0 L0.
    exact (tokenize_off_line cfg rf cf pre1 pre2 s bs li lv Hs Hp2 rpre rpost HR Hpre ltac:(lia) d st O0).
  - destruct d as [|d]; [cbn [length] in Hd; lia|]. cbn [length] in Hd.
    inversion FO as [|? ? OKc FO']; subst. inversion FR as [|? ? RC FR']; subst. specialize (IH FO' FR').
    destruct (rest_head cs FO') as (c1 & r1 & EL & Hsp & H9 & H32).
    pose proof (weight_nonneg cs) as WP.
    assert (HP : forall x, In x (pre2 ++ cpre c) -> x <> 9).
    { intros x I. apply in_app_or in I. destruct I as [I|I]; [exact (Hp2 x I)|].
      pose proof (cpre_chars c OKc) as P. rewrite Forall_forall in P. specialize (P x I). unfold marker_char in P. lia. }
    destruct c as [|m k|d0 ds dl k]; cbn [prefix cpre app wrap reaches] in *; cbn [weight] in Hw; rewrite <- ?app_assoc in *; cbn [app] in *; rewrite EL in *;
      destruct RC as (RX & R & HC & HX); rewrite Forall_forall in HX.
    + (* a block quote marker *)
      assert (REC : rec_adds (tokenize cfg rf cf (S d)) (pre1 ++ pre2 ++ [62; 32]) [] (c1 :: r1) (bs + len pre2 + 1 + 1) li (lv + 1) (wrap cs (lv + 1) false)).
      { exact (IH (pre1 ++ pre2 ++ [62; 32]) [] (bs + len pre2 + 1 + 1) li (lv + 1) d (fun x (H : In x []) => match H with end) ltac:(lia) ltac:(lia)). }
      apply (rec_adds_rule cfg rf cf (S d) pre1 pre2 62 _ bs li lv nm_blockquote RX R _ ltac:(lia) HC).
      * intros st n O I. refine (apply_rule_unclaimed cfg rf cf pre1 pre2 62 _ bs li lv _ _ n _ _ O).
        destruct (HX n I) as [->|[->| ->]]; reflexivity.
      * intros st O L0. rewrite apply_rule_blockquote. exact (r_blockquote_off cfg pre1 pre2 c1 r1 bs li lv Hsp _ _ REC _ st O L0).
    + (* a bullet marker *)
      destruct OKc as [Hm Hk].
      assert (REC : rec_adds (tokenize cfg rf cf (S d)) pre1 (pre2 ++ m :: sp k) (c1 :: r1) bs (len pre2) (lv + 2) (wrap cs (lv + 2) false)).
      { exact (IH pre1 (pre2 ++ m :: sp k) bs (len pre2) (lv + 2) d HP ltac:(lia) ltac:(lia)). }
      destruct (rest_stops_hr m Hm cs FO') as (a & c & b & EA & Fa & Hc & Hcs). rewrite EL in EA.
      apply (rec_adds_rule cfg rf cf (S d) pre1 pre2 m _ bs li lv nm_list RX R _ ltac:(lia) HC).
      * intros st n O I. exists st. split; [exact (bullet_before_fail cfg rf cf pre1 pre2 m k c1 r1 bs li lv a c b EA Fa Hc Hcs Hm _ _ n _ (HX n I) O) | apply same_off_refl, O].
      * intros st O L0. rewrite apply_rule_list.
        exact (r_list_off cfg pre1 pre2 m k c1 r1 bs li lv Hm Hk H9 H32 _ _ REC _ (mark_tight_wrap _ _ _ _ cs lv) _ st O L0).
    + (* an ordered marker *)
      destruct OKc as (Hd0 & Hds & Hl8 & Hdl & Hk).
      assert (REC : rec_adds (tokenize cfg rf cf (S d)) pre1 (pre2 ++ (d0 :: ds) ++ dl :: sp k) (c1 :: r1) bs (len pre2) (lv + 2) (wrap cs (lv + 2) false)).
      { exact (IH pre1 (pre2 ++ (d0 :: ds) ++ dl :: sp k) bs (len pre2) (lv + 2) d HP ltac:(lia) ltac:(lia)). }
      apply (rec_adds_rule cfg rf cf (S d) pre1 pre2 d0 _ bs li lv nm_list RX R _ ltac:(lia) HC).
      * intros st n O I. exists st. split; [exact (ordered_before_fail cfg rf cf pre1 pre2 d0 ds dl k c1 r1 bs li lv Hd0 _ _ n _ (HX n I) O) | apply same_off_refl, O].
      * intros st O L0. rewrite apply_rule_list.
        exact (r_list_off_ordered cfg pre1 pre2 d0 ds dl k c1 r1 bs li lv Hd0 Hds Hl8 Hdl Hk H9 H32 _ _ REC _ (mark_tight_wrap _ _ _ _ cs lv) _ st O L0).
Qed.

Context (RA RB RC RD : list str).
Context (HC : c_rules cfg = RA ++ nm_blockquote :: RB ++ nm_list :: RC ++ nm_paragraph :: RD).
Context (HA : Forall (fun n => n = nm_table \/ n = nm_code \/ n = nm_fence) RA).
Context (HB : Forall (fun n => n = nm_table \/ n = nm_code \/ n = nm_fence \/ n = nm_hr) RB).
Context (HCn : Forall (fun n => str_eqb n nm_paragraph = false) RC).

Theorem nest : forall cs, Forall okc cs -> forall pre1 pre2 bs li lv d,
  (forall x, In x pre2 -> x <> 9) -> lv + weight cs < c_maxNesting cfg -> (length cs <= d)%nat ->
  rec_adds (tokenize cfg rf cf (S d)) pre1 pre2 (prefix cs ++ s) bs li lv (wrap cs lv false).
Proof.
  intros cs FO. destruct (std_paragraph cfg RA RB RC RD HC HA HB HCn) as [HR Hpre].
  exact (nest_gen _ RD HR Hpre cs FO (std_reaches cfg RA RB RC RD HC HA HB cs)).
Qed.

End Nest.

Lemma one_line_off st L : one_line st L -> off_line st [] [] L 0 (-1) 0.
Proof. exact (fun H => H). Qed.
Lemma off_one_line st L : off_line st [] [] L 0 (-1) 0 -> one_line st L.
Proof. exact (fun H => H). Qed.

Lemma block_parse_adds cfg rf cf c body X env toks :
  is_space c = false -> c <> 10 -> (forall x, In x body -> x <> 10) ->
  rec_adds (tokenize cfg rf cf (S (S (Z.to_nat (c_maxNesting cfg))))) [] [] (c :: body) 0 (-1) 0 X ->
  exists st, block_parse cfg rf cf ((c :: body) ++ [10]) env toks = Ok st /\ b_tokens st = toks ++ X /\ b_env st = env.
Proof.
  intros Hsp Hn NB REC. unfold block_parse.
  destruct (init_line c body env toks Hsp Hn NB) as (O0 & T0 & E0 & L0).
  set (st := state_init ((c :: body) ++ [10]) env toks) in *.
  cbn [app]. cbv zeta. cbv iota.
  pose proof O0 as O0'. ol O0'. rewrite L0, HlM.
  destruct (REC st O0 L0) as (st' & TK & _ & T' & E' & _).
  rewrite TK. exists st'. split; [reflexivity|]. split; [rewrite T', T0; reflexivity | rewrite E'; exact E0].
Qed.

Lemma length_weight : forall cs, Z.of_nat (length cs) <= weight cs.
Proof. induction cs as [|[|m k|d0 ds dl k] cs IH]; cbn [length weight]; lia. Qed.

Theorem block_parse_nest cfg rf cf s rpre rpost cs env toks :
  line_ok s -> c_rules cfg = rpre ++ nm_paragraph :: rpost -> Forall (fun n => str_eqb n nm_paragraph = false) rpre ->
  Forall okc cs -> Forall (reaches cfg) cs -> weight cs < c_maxNesting cfg ->
  exists st, block_parse cfg rf cf (prefix cs ++ s ++ [10]) env toks = Ok st
    /\ b_tokens st = toks ++ wrap s cs 0 false /\ b_env st = env.
Proof.
  intros Hs HR Hpre FO FR Hw.
  destruct (rest_head s Hs cs FO) as (c1 & r1 & EL & Hsp & _).
  pose proof (rest_nolf s Hs cs FO) as NL. rewrite EL in NL.
  rewrite app_assoc, EL. pose proof (length_weight cs) as LW.
  apply block_parse_adds; [exact Hsp | apply NL; left; reflexivity | intros x I; apply NL; right; exact I |].
  rewrite <- EL. exact (nest_gen cfg rf cf s Hs rpre rpost HR Hpre cs FO FR [] [] 0 (-1) 0 (S (Z.to_nat (c_maxNesting cfg))) (fun x (H : In x []) => match H with end) ltac:(lia) ltac:(lia)).
Qed.

Definition inl_at (s : str) (lv : Z) (ch : list token) : token :=
  set_children (map_tok 0 1 (set_content (set_level (set_block (new_token s_inline [] 0) true) (lv + 1)) s)) (Some ch).
Definition para_ch (s : str) (lv : Z) (ch : list token) : list token :=
  [map_tok 0 1 (set_level (set_block (new_token [112; 97; 114; 97; 103; 114; 97; 112; 104; 95; 111; 112; 101; 110] [112] 1) true) lv);
   inl_at s lv ch;
   set_level (set_block (new_token [112; 97; 114; 97; 103; 114; 97; 112; 104; 95; 99; 108; 111; 115; 101] [112] (-1)) true) lv].
Fixpoint wrapc (s : str) (cs : list ctr) (lv : Z) (hid : bool) (ch : list token) : list token :=
  match cs with
  | [] => if hid then hide_para (para_ch s lv ch) else para_ch s lv ch
  | CQ :: r => bq_open_at lv :: wrapc s r (lv + 1) false ch ++ [bq_close_at lv]
  | CI m _ :: r => ul_open_at m lv :: li_open_at m (lv + 1) :: wrapc s r (lv + 2) true ch ++ [li_close_at m (lv + 1); ul_close_at m lv]
  | CO d0 ds dl _ :: r => ol_open_at dl (int_of_digits (d0 :: ds)) lv :: li_open_g true (d0 :: ds) dl (lv + 1) :: wrapc s r (lv + 2) true ch
                          ++ [li_close_at dl (lv + 1); ol_close_at dl lv]
  end.

Lemma wrap_wrapc s : forall cs lv hid, wrap s cs lv hid = wrapc s cs lv hid [].
Proof. induction cs as [|[|m k|d0 ds dl k] cs IH]; intros lv hid; cbn [wrap wrapc]; [destruct hid; reflexivity | rewrite IH; reflexivity | rewrite IH; reflexivity | rewrite IH; reflexivity]. Qed.

Lemma ol_open_type dl mv lv : str_eqb (ttype (ol_open_at dl mv lv)) s_inline = false.
Proof. unfold ol_open_at. destruct (negb (mv =? 1)); reflexivity. Qed.

Section NPipe.
Context (cfg : pcfg) (rf cf lt : str -> str).
Context (s : str).

Lemma inline_all_wrapc env : forall cs lv hid,
  inline_all cfg rf cf lt (wrapc s cs lv hid []) env
  = (do toks <- inline_parse (p_inline cfg) rf cf lt s env []; Ok (wrapc s cs lv hid toks)).
Proof.
  induction cs as [|[|m k|d0 ds dl k] cs IH]; intros lv hid; cbn [wrapc].
  - destruct hid; unfold hide_para, para_ch, inl_at;
      rewrite inline_all_plain, (inline_all_inline _ _ _ _ _ s), inline_all_plain by reflexivity;
      destruct (inline_parse (p_inline cfg) rf cf lt s env []); reflexivity.
  - rewrite inline_all_plain, inline_all_app, IH, inline_all_plain by reflexivity.
    destruct (inline_parse (p_inline cfg) rf cf lt s env []); reflexivity.
  - rewrite !inline_all_plain, inline_all_app, IH, !inline_all_plain by reflexivity.
    destruct (inline_parse (p_inline cfg) rf cf lt s env []); reflexivity.
  - rewrite (inline_all_plain _ _ _ _ _ _ _ (ol_open_type _ _ _)), inline_all_plain, inline_all_app, IH, !inline_all_plain by reflexivity.
    destruct (inline_parse (p_inline cfg) rf cf lt s env []); reflexivity.
Qed.

Lemma text_join_wrapc toks : forall cs lv hid, text_join (wrapc s cs lv hid toks) = wrapc s cs lv hid (join_children toks).
Proof.
  assert (A : forall a b, text_join (a ++ b) = text_join a ++ text_join b) by (intros; apply map_app).
  induction cs as [|[|m k|d0 ds dl k] cs IH]; intros lv hid; cbn [wrapc].
  - destruct hid; unfold hide_para, para_ch, inl_at; rewrite text_join_plain, text_join_inline, text_join_plain by reflexivity; reflexivity.
  - rewrite text_join_plain, A, IH, text_join_plain by reflexivity. reflexivity.
  - rewrite !text_join_plain, A, IH, !text_join_plain by reflexivity. reflexivity.
  - rewrite (text_join_plain _ _ (ol_open_type _ _ _)), text_join_plain, A, IH, !text_join_plain by reflexivity. reflexivity.
Qed.

End NPipe.

Lemma mem_prefix c : c <> 62 -> c <> 32 -> c <> 42 -> c <> 45 -> c <> 43 -> c <> 46 -> c <> 41 -> (c < 48 \/ 57 < c) ->
  forall cs, Forall okc cs -> mem_z c (prefix cs) = false.
Proof.
  intros A B C D E G1 G2 ND cs F. unfold mem_z.
  induction (prefix_chars cs F) as [|x l Hx _ IH]; [reflexivity|]. cbn [existsb]. rewrite IH. unfold marker_char in Hx.
  assert (E1 : (c =? x) = false) by lia. rewrite E1. reflexivity.
Qed.

(* parse(prefix(cs) s LF), for any chain that reaches the rules of the containers of cs and the paragraph rule *)
Theorem parse_nested_gen :
  forall cfg rf cf lt s, line_ok s -> mem_z 13 s = false -> mem_z 0 s = false ->
  forall rpre rpost, c_rules (p_block cfg) = rpre ++ nm_paragraph :: rpost ->
    Forall (fun n => str_eqb n nm_paragraph = false) rpre ->
    p_core cfg = [n_normalize; n_block; n_inline; n_text_join] ->
  forall cs, Forall okc cs -> Forall (reaches (p_block cfg)) cs -> weight cs < c_maxNesting (p_block cfg) ->
  forall env,
    parse cfg rf cf lt (prefix cs ++ s ++ [10]) env
    = (do toks <- inline_parse (p_inline cfg) rf cf lt s env [];
       Ok (wrapc s cs 0 false (join_children toks), env)).
Proof.
  intros cfg rf cf lt s Hs H13 H0 rpre rpost HR Hpre Hcore cs FO FR Hw env.
  assert (M : forall c, c <> 10 -> c <> 62 -> c <> 32 -> c <> 42 -> c <> 45 -> c <> 43 -> c <> 46 -> c <> 41 -> (c < 48 \/ 57 < c) ->
              mem_z c s = false -> mem_z c (prefix cs ++ s ++ [10]) = false).
  { intros c A B C D D2 D3 D4 D5 D6 E. unfold mem_z. rewrite !existsb_app. fold (mem_z c (prefix cs)). fold (mem_z c s). rewrite (mem_prefix c B C D D2 D3 D4 D5 D6 cs FO), E.
    cbn. assert (E1 : (c =? 10) = false) by lia. rewrite E1. reflexivity. }
  rewrite parse_std; [| apply M; try discriminate; try assumption; unfold CR; lia | apply M; try discriminate; try assumption; unfold NUL; lia | exact Hcore].
  destruct (block_parse_nest (p_block cfg) rf cf s rpre rpost cs env [] Hs HR Hpre FO FR Hw) as (st & BP & T & E).
  rewrite BP. cbn [bind]. rewrite T, E. cbn [app].
  rewrite wrap_wrapc, inline_all_wrapc.
  destruct (inline_parse (p_inline cfg) rf cf lt s env []) as [toks|e|]; cbn [bind]; try reflexivity.
  rewrite text_join_wrapc. reflexivity.
Qed.

(* C06, containers within containers: the document  prefix(cs) s LF  - any list of block quote, bullet and ordered
   markers in front of the line - parses to the paragraph of s wrapped in exactly those containers, level by level; the
   inline token has the content s, the map [0,1] and the children of parseInline(s) at every depth *)
Theorem parse_nested :
  forall cfg rf cf lt s, line_ok s -> mem_z 13 s = false -> mem_z 0 s = false ->
  forall RA RB RC RD, c_rules (p_block cfg) = RA ++ nm_blockquote :: RB ++ nm_list :: RC ++ nm_paragraph :: RD ->
    Forall (fun n => n = nm_table \/ n = nm_code \/ n = nm_fence) RA ->
    Forall (fun n => n = nm_table \/ n = nm_code \/ n = nm_fence \/ n = nm_hr) RB ->
    Forall (fun n => str_eqb n nm_paragraph = false) RC ->
    p_core cfg = [n_normalize; n_block; n_inline; n_text_join] ->
  forall cs, Forall okc cs -> weight cs < c_maxNesting (p_block cfg) ->
  forall env,
    parse cfg rf cf lt (prefix cs ++ s ++ [10]) env
    = (do toks <- inline_parse (p_inline cfg) rf cf lt s env [];
       Ok (wrapc s cs 0 false (join_children toks), env)).
Proof.
  intros cfg rf cf lt s Hs H13 H0 RA RB RC RD HC HA HB HCn Hcore cs FO.
  destruct (std_paragraph (p_block cfg) RA RB RC RD HC HA HB HCn) as [HR Hpre].
  exact (parse_nested_gen cfg rf cf lt s Hs H13 H0 _ RD HR Hpre Hcore cs FO (std_reaches (p_block cfg) RA RB RC RD HC HA HB cs)).
Qed.

(* C18: the paragraph context and inline mode hand the inline parser the same string *)
Theorem paragraph_is_parse_inline :
  forall cfg rf cf lt s, line_ok s -> mem_z 13 s = false -> mem_z 0 s = false ->
  forall pre post, c_rules (p_block cfg) = pre ++ nm_paragraph :: post ->
    Forall (fun n => str_eqb n nm_paragraph = false) pre -> 0 < c_maxNesting (p_block cfg) ->
    p_core cfg = [n_normalize; n_block; n_inline; n_text_join] ->
  forall env,
    parse cfg rf cf lt (s ++ [10]) env
    = (do toks <- inline_parse (p_inline cfg) rf cf lt s env [];
       Ok ([p_open; set_children (p_inl s) (Some (join_children toks)); p_close], env))
    /\ parse_inline cfg rf cf lt s env
       = (do toks <- inline_parse (p_inline cfg) rf cf lt s env [];
          Ok ([set_children (i_inl s) (Some (join_children toks))], env)).
Proof.
  intros cfg rf cf lt s Hs H13 H0 pre post HR Hpre Hn Hc env.
  exact (conj (parse_nested_gen cfg rf cf lt s Hs H13 H0 pre post HR Hpre Hc [] (Forall_nil _) (Forall_nil _) Hn env)
              (parse_inline_one_line cfg rf cf lt s H13 H0 Hc env)).
Qed.

(* C06 and C18 on one-line paragraphs: quoting the document nests its blocks -
   exactly one block quote whose contents are the tokens of the unquoted document one level deeper, with the
   same maps, the same inline content and the same children *)
Theorem quote_nests_paragraph :
  forall cfg rf cf lt s, line_ok s -> mem_z 13 s = false -> mem_z 0 s = false ->
  forall rpre rpost, c_rules (p_block cfg) = rpre ++ nm_paragraph :: rpost ->
    Forall (fun n => str_eqb n nm_paragraph = false) rpre ->
  forall bpre bpost, c_rules (p_block cfg) = bpre ++ nm_blockquote :: bpost ->
    Forall (fun n => n = nm_table \/ n = nm_code \/ n = nm_fence) bpre ->
    1 < c_maxNesting (p_block cfg) ->
    p_core cfg = [n_normalize; n_block; n_inline; n_text_join] ->
  forall env,
    parse cfg rf cf lt (s ++ [10]) env
    = (do toks <- inline_parse (p_inline cfg) rf cf lt s env [];
       Ok ([p_open; set_children (p_inl s) (Some (join_children toks)); p_close], env))
    /\ parse cfg rf cf lt ([62; 32] ++ s ++ [10]) env
    = (do toks <- inline_parse (p_inline cfg) rf cf lt s env [];
       Ok (bq_open_tok :: map deeper [p_open; set_children (p_inl s) (Some (join_children toks)); p_close] ++ [bq_close_tok], env)).
Proof.
  intros cfg rf cf lt s Hs H13 H0 rpre rpost HR Hpre bpre bpost HB Hbpre Hn Hc env. split.
  - exact (parse_nested_gen cfg rf cf lt s Hs H13 H0 rpre rpost HR Hpre Hc [] (Forall_nil _) (Forall_nil _) ltac:(cbn [weight]; lia) env).
  - assert (FR : Forall (reaches (p_block cfg)) [CQ]) by (constructor; [exists bpre, bpost; split; assumption | constructor]).
    exact (parse_nested_gen cfg rf cf lt s Hs H13 H0 rpre rpost HR Hpre Hc [CQ] (Forall_cons CQ I (Forall_nil _)) FR ltac:(cbn [weight]; lia) env).
Qed.

(* C06 on one-line paragraphs: prefixing the line with the marker "- " nests its blocks two
   levels deeper in a one-item tight list - same maps, same inline content, same children, the paragraph tokens hidden *)
Theorem item_nests_paragraph :
  forall cfg rf cf lt s, line_ok s -> mem_z 13 s = false -> mem_z 0 s = false ->
  forall rpre rpost, c_rules (p_block cfg) = rpre ++ nm_paragraph :: rpost ->
    Forall (fun n => str_eqb n nm_paragraph = false) rpre ->
  forall bpre bpost, c_rules (p_block cfg) = bpre ++ nm_list :: bpost ->
    Forall (fun n => n = nm_table \/ n = nm_code \/ n = nm_fence \/ n = nm_blockquote \/ n = nm_hr) bpre ->
    2 < c_maxNesting (p_block cfg) ->
    p_core cfg = [n_normalize; n_block; n_inline; n_text_join] ->
  forall env,
    parse cfg rf cf lt (s ++ [10]) env
    = (do toks <- inline_parse (p_inline cfg) rf cf lt s env [];
       Ok ([p_open; set_children (p_inl s) (Some (join_children toks)); p_close], env))
    /\ parse cfg rf cf lt ([45; 32] ++ s ++ [10]) env
    = (do toks <- inline_parse (p_inline cfg) rf cf lt s env [];
       Ok (ul_open_tok :: li_open_tok
           :: hide_para (map deeper2 [p_open; set_children (p_inl s) (Some (join_children toks)); p_close])
           ++ [li_close_tok; ul_close_tok], env)).
Proof.
  intros cfg rf cf lt s Hs H13 H0 rpre rpost HR Hpre bpre bpost HB Hbpre Hn Hc env. split.
  - exact (parse_nested_gen cfg rf cf lt s Hs H13 H0 rpre rpost HR Hpre Hc [] (Forall_nil _) (Forall_nil _) ltac:(cbn [weight]; lia) env).
  - assert (FR : Forall (reaches (p_block cfg)) [CI 45 1]) by (constructor; [exists bpre, bpost; split; assumption | constructor]).
    assert (FO : Forall okc [CI 45 1]) by (constructor; [split; [tauto | lia] | constructor]).
    exact (parse_nested_gen cfg rf cf lt s Hs H13 H0 rpre rpost HR Hpre Hc [CI 45 1] FO FR ltac:(cbn [weight]; lia) env).
Qed.

(* the hypotheses can be met: the commonmark chain and a line behind four containers *)
Example nested_example :
  [nm_table; nm_code; nm_fence; nm_blockquote; nm_hr; nm_list; nm_reference; nm_html_block; nm_heading; nm_lheading; nm_paragraph]
  = [nm_table; nm_code; nm_fence] ++ nm_blockquote :: [nm_hr] ++ nm_list :: [nm_reference; nm_html_block; nm_heading; nm_lheading] ++ nm_paragraph :: []
  /\ prefix [CQ; CI 45 1; CO 49 [50] 46 2; CQ] ++ [102; 111; 111] ++ [10] = [62; 32; 45; 32; 49; 50; 46; 32; 32; 62; 32; 102; 111; 111; 10]
  /\ weight [CQ; CI 45 1; CO 49 [50] 46 2; CQ] = 6 /\ Forall okc [CQ; CI 45 1; CO 49 [50] 46 2; CQ].
Proof.
  split; [reflexivity|]. split; [reflexivity|]. split; [reflexivity|].
  constructor; [exact I|]. constructor; [cbn; split; [tauto | lia]|].
  constructor; [unfold okc; split; [reflexivity|]; split; [repeat constructor|]; split; [unfold len; cbn; lia|]; split; [left; reflexivity | lia]|].
  constructor; [exact I | constructor].
Qed.

(* C09 in every nesting of block quotes and list items: escaped text is one literal text token *)
Theorem parse_nested_escaped_gen :
  forall cfg rf cf lt (segs : list seg), wf segs -> line_ok (src_of segs) ->
    mem_z 13 (src_of segs) = false -> mem_z 0 (src_of segs) = false ->
  forall rpre rpost, c_rules (p_block cfg) = rpre ++ nm_paragraph :: rpost ->
    Forall (fun n => str_eqb n nm_paragraph = false) rpre ->
    p_core cfg = [n_normalize; n_block; n_inline; n_text_join] ->
  forall ipre ipost, ic_rules (p_inline cfg) = ipre ++ n_escape :: ipost ->
    Forall (fun n => n = n_text \/ n = n_linkify \/ n = n_newline) ipre -> In n_text ipre ->
    ic_linkify (p_inline cfg) = false -> 0 < ic_maxNesting (p_inline cfg) ->
  forall cs, Forall okc cs -> Forall (reaches (p_block cfg)) cs -> weight cs < c_maxNesting (p_block cfg) ->
  forall env, exists p,
    parse cfg rf cf lt (prefix cs ++ src_of segs ++ [10]) env = Ok (wrapc (src_of segs) cs 0 false [p], env)
    /\ ttype p = s_text /\ tcontent p = text_of segs.
Proof.
  intros cfg rf cf lt segs Hwf Hs H13 H0 rpre rpost HR Hpre Hcore ipre ipost HRi Hipre Hitext Hlink Hinest cs FO FR Hw env.
  rewrite (parse_nested_gen cfg rf cf lt (src_of segs) Hs H13 H0 rpre rpost HR Hpre Hcore cs FO FR Hw env).
  destruct (inline_parse_esc_one cfg rf cf lt ipre ipost HRi Hipre Hitext Hlink Hinest segs env Hwf Hs) as (toks & p & IP & JC & Hp & Cp).
  rewrite IP. cbn [bind]. rewrite JC. exists p. split; [reflexivity|]. split; assumption.
Qed.

Theorem parse_nested_escaped :
  forall cfg rf cf lt (segs : list seg), wf segs -> line_ok (src_of segs) ->
    mem_z 13 (src_of segs) = false -> mem_z 0 (src_of segs) = false ->
  forall RA RB RC RD, c_rules (p_block cfg) = RA ++ nm_blockquote :: RB ++ nm_list :: RC ++ nm_paragraph :: RD ->
    Forall (fun n => n = nm_table \/ n = nm_code \/ n = nm_fence) RA ->
    Forall (fun n => n = nm_table \/ n = nm_code \/ n = nm_fence \/ n = nm_hr) RB ->
    Forall (fun n => str_eqb n nm_paragraph = false) RC ->
    p_core cfg = [n_normalize; n_block; n_inline; n_text_join] ->
  forall ipre ipost, ic_rules (p_inline cfg) = ipre ++ n_escape :: ipost ->
    Forall (fun n => n = n_text \/ n = n_linkify \/ n = n_newline) ipre -> In n_text ipre ->
    ic_linkify (p_inline cfg) = false -> 0 < ic_maxNesting (p_inline cfg) ->
  forall cs, Forall okc cs -> weight cs < c_maxNesting (p_block cfg) ->
  forall env, exists p,
    parse cfg rf cf lt (prefix cs ++ src_of segs ++ [10]) env = Ok (wrapc (src_of segs) cs 0 false [p], env)
    /\ ttype p = s_text /\ tcontent p = text_of segs.
Proof.
  intros cfg rf cf lt segs Hwf Hs H13 H0 RA RB RC RD HC HA HB HCn Hcore ipre ipost HRi Hipre Hitext Hlink Hinest cs FO.
  destruct (std_paragraph (p_block cfg) RA RB RC RD HC HA HB HCn) as [HR Hpre].
  exact (parse_nested_escaped_gen cfg rf cf lt segs Hwf Hs H13 H0 _ RD HR Hpre Hcore ipre ipost HRi Hipre Hitext Hlink Hinest cs FO
           (std_reaches (p_block cfg) RA RB RC RD HC HA HB cs)).
Qed.

(* C08: an ordered marker is recorded as written *)
Theorem ordered_marker_recorded :
  forall cfg rf cf lt s, line_ok s -> mem_z 13 s = false -> mem_z 0 s = false ->
  forall RA RB RC RD, c_rules (p_block cfg) = RA ++ nm_blockquote :: RB ++ nm_list :: RC ++ nm_paragraph :: RD ->
    Forall (fun n => n = nm_table \/ n = nm_code \/ n = nm_fence) RA ->
    Forall (fun n => n = nm_table \/ n = nm_code \/ n = nm_fence \/ n = nm_hr) RB ->
    Forall (fun n => str_eqb n nm_paragraph = false) RC ->
    p_core cfg = [n_normalize; n_block; n_inline; n_text_join] ->
  forall d0 ds dl k, okc (CO d0 ds dl k) -> 2 < c_maxNesting (p_block cfg) ->
  forall env,
    parse cfg rf cf lt (((d0 :: ds) ++ dl :: repeat 32 k) ++ s ++ [10]) env
    = (do toks <- inline_parse (p_inline cfg) rf cf lt s env [];
       Ok (ol_open_at dl (int_of_digits (d0 :: ds)) 0 :: li_open_g true (d0 :: ds) dl 1 :: wrapc s [] 2 true (join_children toks)
           ++ [li_close_at dl 1; ol_close_at dl 0], env))
    /\ tinfo (li_open_g true (d0 :: ds) dl 1) = d0 :: ds /\ tmarkup (li_open_g true (d0 :: ds) dl 1) = [dl]
    /\ tmarkup (ol_open_at dl (int_of_digits (d0 :: ds)) 0) = [dl]
    /\ (int_of_digits (d0 :: ds) <> 1 -> tattrs (ol_open_at dl (int_of_digits (d0 :: ds)) 0) = [(s_start, AInt (int_of_digits (d0 :: ds)))])
    /\ (int_of_digits (d0 :: ds) = 1 -> tattrs (ol_open_at dl (int_of_digits (d0 :: ds)) 0) = []).
Proof.
  intros cfg rf cf lt s Hs H13 H0 RA RB RC RD HC HA HB HCn Hcore d0 ds dl k OK Hw env.
  split.
  - pose proof (parse_nested cfg rf cf lt s Hs H13 H0 RA RB RC RD HC HA HB HCn Hcore [CO d0 ds dl k] (Forall_cons _ OK (Forall_nil _)) ltac:(cbn [weight]; lia) env) as P.
    cbn [prefix cpre wrapc] in P. rewrite app_nil_r in P. exact P.
  - split; [reflexivity|]. split; [reflexivity|].
    split; [unfold ol_open_at; destruct (negb (int_of_digits (d0 :: ds) =? 1)); reflexivity|].
    split; intros H; unfold ol_open_at.
    + destruct (int_of_digits (d0 :: ds) =? 1) eqn:E; [apply Z.eqb_eq in E; contradiction | reflexivity].
    + rewrite H. reflexivity.
Qed.
