(* C16 / C05, block half: what a whole run of the block parser does to env.  For EVERY source and
   configuration: the definitions already in env stay where they are (a prefix), new ones are
   appended under labels that were absent, later definitions of a present label go to
   duplicate_refs, and every recorded destination is a normalizeLink result that validateLink
   accepted. *)
From MD Require Import Base.Py Model.StateBlock Model.Url Model.Block Lemmas.BlockLemmas Lemmas.Phases
     Lemmas.BlockEff.

Section Env.
Context (cfg : bcfg) (rf cf : str -> str).

Definition good_href (h : str) : Prop := exists raw, h = normalize_link rf raw /\ validate_link_re h = true.
Definition good_ref (lr : str * refrec) : Prop := good_href (r_href (snd lr)).

Definition env_ext (e e' : envt) : Prop :=
  exists a d, env_refs e' = env_refs e ++ a /\ env_dups e' = env_dups e ++ d
              /\ Forall good_ref a /\ Forall good_ref d
              /\ Forall (fun lr => alookup (fst lr) (env_refs e) = None) a.

Lemma env_ext_refl e : env_ext e e.
Proof. exists [], []. rewrite !app_nil_r. repeat split; constructor. Qed.

Lemma alookup_app_none {A} k (x y : list (str * A)) : alookup k (x ++ y) = None -> alookup k x = None.
Proof.
  induction x as [|[k' v] x IH]; intros H; [reflexivity|]. cbn [app alookup] in *.
  destruct (str_eqb k k'); [discriminate H | apply IH, H].
Qed.

Lemma env_ext_trans a b c : env_ext a b -> env_ext b c -> env_ext a c.
Proof.
  intros (a1 & d1 & R1 & D1 & G1 & H1 & N1) (a2 & d2 & R2 & D2 & G2 & H2 & N2).
  exists (a1 ++ a2), (d1 ++ d2). rewrite R2, R1, D2, D1, !app_assoc. repeat split.
  - apply Forall_app; split; assumption.
  - apply Forall_app; split; assumption.
  - apply Forall_app; split; [exact N1|]. eapply Forall_impl; [|exact N2]. intros lr H. rewrite R1 in H.
    eapply alookup_app_none; exact H.
Qed.

Lemma record_ext e label r : good_href (r_href r) -> env_ext e (record_ref e label r).
Proof.
  intros G. unfold env_ext, env_refs, env_dups, record_ref.
  destruct (e_refs e) as [refs|] eqn:ER; cbn [e_refs e_dups]; rewrite ?ER.
  - destruct (alookup label refs) eqn:AL; cbn [e_refs e_dups].
    + exists [], [(label, r)]. rewrite app_nil_r. repeat split; try constructor; try exact G; constructor.
    + exists [(label, r)], []. rewrite app_nil_r. repeat split; try constructor; try exact G; try constructor. exact AL.
  - cbn [alookup e_refs e_dups app].
    exists [(label, r)], []. rewrite app_nil_r. repeat split; try constructor; try exact G; constructor.
Qed.

Lemma eff_env (A : str -> Prop) (C : bstate -> bstate -> Prop) (HC : forall a b, C a b -> env_ext (b_env a) (b_env b)) a b :
  eff cfg rf A C a b -> env_ext (b_env a) (b_env b).
Proof.
  induction 1 as [a b Cab | a | a b c _ E1 _ E2 | a n ty tag f _ _ _ | a n oty cty tag f f' b _ _ _ _ _ E
                  | a b X _ E _ EX _ _ | a X label title raw m _ _ VL EX | a a' b X _ Ea _ E _ EX _].
  - exact (HC a b Cab).
  - apply env_ext_refl.
  - exact (env_ext_trans _ _ _ E1 E2).
  - apply env_ext_refl.
  - exact E.
  - rewrite EX. exact E.
  - rewrite EX. apply record_ext. exists raw. split; [reflexivity | exact VL].
  - rewrite EX, <- Ea. exact E.
Qed.

(* ParserBlock.parse: env only grows, first definition of a label wins, recorded destinations are
   validated normalizeLink results *)
Theorem block_parse_env src env toks st :
  block_parse cfg rf cf src env toks = Ok st -> env_ext env (b_env st).
Proof.
  intros H.
  exact (eff_env any_rule (fun _ _ => False) (fun a b F => match F with end) (state_init src env toks) st
                 (block_parse_eff cfg rf cf _ _ (fun _ _ _ => I) (fun _ _ => I) src env toks st H)).
Qed.

End Env.
