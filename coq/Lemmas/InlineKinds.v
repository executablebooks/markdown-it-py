(* C04 / C10, inline half: every token the inline parser leaves in its token list has a
   (type, tag) pair from the fixed inline vocabulary, html_inline only when options.html is on --
   through all 12 tokenizing rules, the recursion of link labels and image descriptions, skipToken,
   the four post-processing rules (which rewrite tokens in place), for every source, env and
   configuration.  Read off the segment grammar of InlineWalk. *)
From MD Require Import Base.Py Model.Token Model.Render Model.Core Model.Inline Lemmas.InlineWalk.

(* (type, tag) only.  Nothing is asked of children: the tokens of an image description (parsed by a nested
   ParserInline.parse and kept as the image token's children) are outside the vocabulary statement *)
Definition is0 (ty tag : str) (t : token) : Prop := ttype t = ty /\ ttag t = tag.

Section IKinds.
Context (cfg : icfg).

Definition V (t : token) : Prop :=
  is0 s_text [] t \/ is0 s_text_special_ [] t \/ is0 s_softbreak s_br t \/ is0 s_hardbreak s_br t
  \/ is0 s_code_inline s_code t \/ is0 s_link_open s_a t \/ is0 s_link_close s_a t \/ is0 s_image [105; 109; 103] t
  \/ (ic_html cfg = true /\ is0 s_html_inline [] t)
  \/ is0 s_s_open s_s t \/ is0 s_s_close s_s t
  \/ is0 [101; 109; 95; 111; 112; 101; 110] [101; 109] t \/ is0 [101; 109; 95; 99; 108; 111; 115; 101] [101; 109] t
  \/ is0 [115; 116; 114; 111; 110; 103; 95; 111; 112; 101; 110] [115; 116; 114; 111; 110; 103] t
  \/ is0 [115; 116; 114; 111; 110; 103; 95; 99; 108; 111; 115; 101] [115; 116; 114; 111; 110; 103] t.

Lemma tt_V t t' : ttype t' = ttype t -> ttag t' = ttag t -> V t -> V t'.
Proof. intros A B H. unfold V, is0 in *. rewrite ?A, ?B. exact H. Qed.

Theorem inline_parse_kinds rf cf lt src env tokens r :
  Forall V tokens -> inline_parse cfg rf cf lt src env tokens = Ok r -> Forall V r.
Proof.
  apply (inline_parse_Forall cfg rf (fun _ => True) I (fun _ _ => I) V).
  - intros t t' A B _. apply tt_V; assumption.
  - intros ty tag n mk t K _. unfold V, is0. cbn [retag set_content set_markup ttype ttag]. clear t n mk.
    (* the pairs are the last six kinds of the vocabulary *)
    do 9 right. destruct K; tauto.
  - intros t [(ty & tag & K & A & B & _) | (_ & h & title & _ & A & B & _)]; unfold V, is0; rewrite A, B; clear A B t; [destruct K|]; tauto.
  - intros t (_ & h & title & _ & A & B & _). unfold V, is0. rewrite A, B. clear A B t. tauto.
  - intros t (_ & A & B & _). unfold V, is0. rewrite A, B. clear A B t. tauto.
  - intros k r' _. exact I.
Qed.

End IKinds.
