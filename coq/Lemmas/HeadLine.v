(* C18, heading context: a one-line ATX heading.  For EVERY text t that starts with a letter, has no
   line end inside, no blank at either end and does not end in '#', and every configuration whose
   block chain reaches the heading rule before lheading / paragraph: parse("# " t LF) is heading_open,
   inline, heading_close; the inline token's content is t and its children are exactly the
   children parseInline(t) produces - the same inline text means the same tokens in a heading as
   in inline mode (and, by Lemmas/NestLine.v, as in a paragraph).  The rules in front of heading cannot claim a
   line that starts with '#' (QuoteLine.claims); the block loop and the core chain are those of the paragraph documents. *)
From MD Require Import Base.Py Base.Str Model.Token Model.Utils Model.StateBlock Model.Render Model.Core Model.Block
     Model.Inline Model.Pipeline Lemmas.StrLemmas Lemmas.QuoteLemmas Lemmas.RenderLemmas Lemmas.NormalizeLemmas
     Lemmas.ParaLine Lemmas.QuoteLine Lemmas.NestLine Lemmas.InlineEsc.
From Coq Require Import ZifyBool.

Record head_ok (t : str) : Prop := {
  ho_line : line_ok t;
  ho_strip : strip_by is_space t = t;
  ho_last : exists c, nth_error t (length t - 1) = Some c /\ is_space c = false /\ c <> 35
}.

Section Tokens.
Context (t : str).
Definition h_open : token := map_tok 0 1 (set_markup (set_level (set_block (new_token [104; 101; 97; 100; 105; 110; 103; 95; 111; 112; 101; 110] (hN 1) 1) true) 0) [35]).
Definition h_inl : token := set_children (map_tok 0 1 (set_content (set_level (set_block (new_token s_inline [] 0) true) 1) t)) (Some []).
Definition h_close : token := set_markup (set_level (set_block (new_token [104; 101; 97; 100; 105; 110; 103; 95; 99; 108; 111; 115; 101] (hN 1) (-1)) true) 0) [35].
End Tokens.

Lemma hash_unclaimed n : str_eqb n nm_heading = false -> str_eqb n nm_paragraph = false -> claims n 35 = false.
Proof. unfold claims. intros -> ->. repeat match goal with |- (if ?b then _ else _) = _ => destruct b end; reflexivity. Qed.

Section Head.
Context (cfg : bcfg) (rf cf : str -> str).
Context (t : str) (Ht : head_ok t).
Notation s := (35 :: 32 :: t).

Lemma t_facts : exists c0 body, t = c0 :: body /\ letter c0 /\ (forall x, In x body -> x <> 10) /\ 0 < len t.
Proof.
  destruct Ht as [[(c0 & body & E & L & B) _] _ _]. exists c0, body. repeat split; try assumption.
  rewrite E, len_cons. pose proof (len_nonneg body). lia.
Qed.

Lemma len_s : len s = len t + 2.
Proof. rewrite !len_cons. lia. Qed.

Lemma last_read st : one_line st s -> exists c, py_idx (b_src st) (len s - 1) = Ok c /\ is_space c = false /\ c <> 35.
Proof.
  intros H. ol H. destruct Ht as [_ _ (c & N & Sp & N35)]. exists c. split; [|split; assumption].
  rewrite len_s, Hsrc. change ((35 :: 32 :: t) ++ [10]) with (35 :: 32 :: t ++ [10]).
  apply py_idx_nth; [pose proof (len_nonneg t); lia|].
  destruct t_facts as (_ & _ & _ & _ & _ & LT).
  replace (Z.to_nat (len t + 2 - 1)) with (S (S (length t - 1))) by (unfold len in *; lia). cbn [nth_error].
  rewrite nth_error_app1 by (unfold len in LT; lia). exact N.
Qed.

Lemma r_heading_line st : one_line st s ->
  exists st', r_heading cfg st 0 1 false = Ok (true, st')
    /\ one_line st' s /\ b_tokens st' = b_tokens st ++ [h_open; h_inl t; h_close] /\ b_env st' = b_env st /\ b_line st' = 1.
Proof.
  intros H. pose proof (one_line_off st s H) as O. unfold r_heading. rewrite (ls0 st O), (em0 st O), (cb0 cfg st O).
  change (len (@nil Z) + len (@nil Z)) with 0. rewrite Z.add_0_l. cbn [bind]. cbv iota.
  pose proof len_s as LS. destruct t_facts as (_ & _ & _ & _ & _ & LT).
  assert (E0 : (len s <=? 0) = false) by lia. rewrite E0.
  pose proof (proj2 (head_char st O)) as HC. change (len (@nil Z) + len (@nil Z)) with 0 in HC.
  rewrite HC. cbn [bind]. change (negb (35 =? 35)) with false. cbv iota.
  destruct (last_read st H) as (c & RC & Sp & N35).
  pose proof H as H'. ol H'.
  (* 8 is the fuel the model gives the loop over the run of '#' (r_heading); the loop stops behind level 6 at the latest *)
  assert (HLv : heading_level 8 (b_src st) (0 + 1) (len s) 1 = (1, 1)) by (rewrite Hsrc; reflexivity).
  rewrite HLv. cbv iota beta.
  assert (SA : is_space_at (b_src st) 1 = true) by (rewrite Hsrc; reflexivity). rewrite SA.
  change (6 <? 1) with false. cbn [negb andb orb]. rewrite Bool.andb_false_r. cbv iota.
  assert (M1 : skip_spaces_back (b_src st) (len s) 1 = Ok (len s)).
  { unfold skip_spaces_back. cbn [skip_back]. assert (X : (len s <=? 1) = false) by lia. rewrite X. rewrite RC. cbn [bind]. rewrite Sp. reflexivity. }
  rewrite M1. cbn [bind].
  assert (M2 : skip_chars_back (b_src st) (len s) 35 1 = Ok (len s)).
  { unfold skip_chars_back. cbn [skip_back]. assert (X : (len s <=? 1) = false) by lia. rewrite X. rewrite RC. cbn [bind].
    assert (Y : (35 =? c) = false) by lia. rewrite Y. reflexivity. }
  rewrite M2. cbn [bind]. assert (X : (1 <? len s) = true) by lia. rewrite X. rewrite RC. cbn [bind].
  replace (if is_space c then len s else len s) with (len s) by (destruct (is_space c); reflexivity).
  assert (SL : slice (b_src st) 1 (len s) = 32 :: t).
  { rewrite Hsrc. pose proof (slice_app_mid [35] (32 :: t) [10]) as Q. cbn [app] in Q.
    change (len [35]) with 1 in Q. rewrite len_cons in Q. rewrite !len_cons. exact Q. }
  rewrite SL.
  assert (PS : strip_by is_space (32 :: t) = t).
  { destruct Ht as [_ ST _]. unfold strip_by in *. cbn [lstrip_by]. change (is_space 32) with true. cbv iota. exact ST. }
  rewrite PS.
  eexists. split; [reflexivity|].
  unfold one_line, st_line, h_open, h_inl, h_close. cbn. rewrite Hlv. cbn.
  repeat split; try assumption; try reflexivity. rewrite <- !app_assoc. reflexivity.
Qed.

Context (pre post : list str).
Context (HR : c_rules cfg = pre ++ nm_heading :: post).
Context (Hpre : Forall (fun n => str_eqb n nm_heading = false /\ str_eqb n nm_paragraph = false /\ str_eqb n nm_lheading = false) pre).
Context (Hnest : 0 < c_maxNesting cfg).

Lemma heading_adds d : rec_adds (tokenize cfg rf cf (S d)) [] [] s 0 (-1) 0 [h_open; h_inl t; h_close].
Proof.
  apply (rec_adds_rule cfg rf cf d [] [] 35 _ 0 (-1) 0 nm_heading pre post _ Hnest HR).
  - intros st n O I. rewrite Forall_forall in Hpre. destruct (Hpre n I) as (N1 & N2 & N3).
    exact (apply_rule_unclaimed cfg rf cf [] [] 35 _ 0 (-1) 0 _ _ n _ (hash_unclaimed n N1 N2) O).
  - intros st O _. rewrite apply_rule_heading. exact (r_heading_line st O).
Qed.

Theorem block_parse_heading env toks :
  exists st, block_parse cfg rf cf (s ++ [10]) env toks = Ok st
    /\ b_tokens st = toks ++ [h_open; h_inl t; h_close] /\ b_env st = env.
Proof.
  destruct t_facts as (c0 & body & E & L & B & _). destruct (letter_not_space c0 L) as [_ Hn].
  apply block_parse_adds; [reflexivity | discriminate | | apply heading_adds].
  intros x [<-|I]; [discriminate|]. rewrite E in I. destruct I as [<-|I]; [exact Hn | exact (B x I)].
Qed.

End Head.

Lemma mem_head t c : c <> 10 -> c <> 35 -> c <> 32 -> mem_z c t = false -> mem_z c ((35 :: 32 :: t) ++ [10]) = false.
Proof.
  intros A B C H. unfold mem_z in *. cbn [app existsb]. rewrite existsb_app, H. cbn.
  assert (E1 : (c =? 35) = false) by lia. assert (E2 : (c =? 32) = false) by lia. assert (E3 : (c =? 10) = false) by lia.
  rewrite E1, E2, E3. reflexivity.
Qed.

Section Pipe.
Context (cfg : pcfg) (rf cf lt : str -> str).
Context (t : str) (Ht : head_ok t).
Context (H13 : mem_z CR t = false) (H0 : mem_z NUL t = false).
Context (pre post : list str).
Context (HR : c_rules (p_block cfg) = pre ++ nm_heading :: post).
Context (Hpre : Forall (fun n => str_eqb n nm_heading = false /\ str_eqb n nm_paragraph = false /\ str_eqb n nm_lheading = false) pre).
Context (Hnest : 0 < c_maxNesting (p_block cfg)).
Context (Hcore : p_core cfg = [n_normalize; n_block; n_inline; n_text_join]).

Theorem parse_heading_line env :
  parse cfg rf cf lt ((35 :: 32 :: t) ++ [10]) env
  = (do toks <- inline_parse (p_inline cfg) rf cf lt t env [];
     Ok ([h_open; set_children (h_inl t) (Some (join_children toks)); h_close], env)).
Proof.
  rewrite parse_std; [| apply mem_head; [discriminate | discriminate | discriminate | assumption] .. | exact Hcore].
  destruct (block_parse_heading (p_block cfg) rf cf t Ht pre post HR Hpre Hnest env []) as (st & BP & T & E).
  rewrite BP. cbn [bind]. rewrite T, E. cbn [app]. unfold h_inl.
  rewrite inline_all_plain, (inline_all_inline _ _ _ _ _ t), inline_all_plain by reflexivity.
  destruct (inline_parse (p_inline cfg) rf cf lt t env []) as [toks|e|]; cbn [bind inline_all]; [|reflexivity|reflexivity].
  rewrite text_join_plain, text_join_inline, text_join_plain by reflexivity. reflexivity.
Qed.

End Pipe.

(* the heading context and inline mode hand the inline parser the same string: same children *)
Theorem heading_is_parse_inline :
  forall cfg rf cf lt t, head_ok t -> mem_z 13 t = false -> mem_z 0 t = false ->
  forall pre post, c_rules (p_block cfg) = pre ++ nm_heading :: post ->
    Forall (fun n => str_eqb n nm_heading = false /\ str_eqb n nm_paragraph = false /\ str_eqb n nm_lheading = false) pre ->
    0 < c_maxNesting (p_block cfg) -> p_core cfg = [n_normalize; n_block; n_inline; n_text_join] ->
  forall env,
    parse cfg rf cf lt ((35 :: 32 :: t) ++ [10]) env
    = (do toks <- inline_parse (p_inline cfg) rf cf lt t env [];
       Ok ([h_open; set_children (h_inl t) (Some (join_children toks)); h_close], env))
    /\ parse_inline cfg rf cf lt t env
       = (do toks <- inline_parse (p_inline cfg) rf cf lt t env [];
          Ok ([set_children (i_inl t) (Some (join_children toks))], env)).
Proof.
  intros cfg rf cf lt t Ht H13 H0 pre post HR Hpre Hn Hc env.
  exact (conj (parse_heading_line cfg rf cf lt t Ht H13 H0 pre post HR Hpre Hn Hc env) (parse_inline_one_line cfg rf cf lt t H13 H0 Hc env)).
Qed.

(* the hypotheses are satisfiable *)
Example head_ok_example : head_ok [72; 105; 32; 42; 121; 111; 117; 42].     (* "Hi *you*" *)
Proof.
  split.
  - split; [exists 72, [105; 32; 42; 121; 111; 117; 42]; split; [reflexivity|]; split; [right; lia | intros x I; cbn in I; repeat (destruct I as [<-|I]; [discriminate|]); contradiction] | reflexivity].
  - reflexivity.
  - exists 42. split; [reflexivity|]. split; [reflexivity | discriminate].
Qed.

Section HeadEsc.
Context (cfg : pcfg) (rf cf lt : str -> str).
Context (segs : list seg) (Hwf : wf segs).
Context (Ht : head_ok (src_of segs)).
Context (H13 : mem_z CR (src_of segs) = false) (H0 : mem_z NUL (src_of segs) = false).
Context (bpre bpost : list str).
Context (HRb : c_rules (p_block cfg) = bpre ++ nm_heading :: bpost).
Context (Hbpre : Forall (fun n => str_eqb n nm_heading = false /\ str_eqb n nm_paragraph = false /\ str_eqb n nm_lheading = false) bpre).
Context (Hbnest : 0 < c_maxNesting (p_block cfg)).
Context (Hcore : p_core cfg = [n_normalize; n_block; n_inline; n_text_join]).
Context (ipre ipost : list str).
Context (HRi : ic_rules (p_inline cfg) = ipre ++ n_escape :: ipost).
Context (Hipre : Forall (fun n => n = n_text \/ n = n_linkify \/ n = n_newline) ipre).
Context (Hitext : In n_text ipre).
Context (Hlink : ic_linkify (p_inline cfg) = false).
Context (Hinest : 0 < ic_maxNesting (p_inline cfg)).

(* render("# " esc(t) LF) = <h1> escapeHtml(t) </h1> LF *)
Theorem render_heading_esc env :
  render_md cfg rf cf lt ((35 :: 32 :: src_of segs) ++ [10]) env
  = Ok ([60; 104; 49; 62] ++ escape_html (text_of segs) ++ [60; 47; 104; 49; 62; 10], env).
Proof.
  unfold render_md.
  rewrite (parse_heading_line cfg rf cf lt (src_of segs) Ht H13 H0 bpre bpost HRb Hbpre Hbnest Hcore env).
  destruct (inline_parse_esc_one cfg rf cf lt ipre ipost HRi Hipre Hitext Hlink Hinest segs env Hwf (ho_line _ Ht)) as (toks & p & IP & JC & Hp & Cp).
  rewrite IP. cbn [bind]. rewrite JC.
  assert (HO : tag_tok h_open 1 (hN 1) []) by (repeat split).
  assert (HC : tag_tok h_close (-1) (hN 1) []) by (repeat split).
  unfold render, h_inl. cbn [set_children].
  rewrite (render_list_plain _ _ _ _ (tt_plain _ _ _ _ HO)).
  rewrite (render_list_inline _ _ _ [p] [CEsc (tcontent p)] [p]); [|reflexivity | cbn [render_inline_list hd_error]; rewrite (render_text_token _ _ p None Hp); reflexivity].
  rewrite (render_list_plain _ _ _ _ (tt_plain _ _ _ _ HC)). cbn [render_list bind hd_error].
  rewrite !html_of_app, (html_close_tag HC), (html_open_tag_glued HO) by reflexivity.
  rewrite Cp. cbn [html_of flat_map chunk_html]. rewrite !app_nil_r. reflexivity.
Qed.

End HeadEsc.
