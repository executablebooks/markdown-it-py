(* C17, encoding half: the three line-ending encodings (and any per-line mixture)
   and NUL / U+FFFD normalise to the same string, which contains no CR and no NUL. *)
From MD Require Import Base.Py Base.Str Model.Core.

Definition CR : Z := 13.
Definition NUL : Z := 0.
Definition FFFD : Z := 65533.

Definition starts_lf (s : str) : bool := match s with d :: _ => d =? 10 | [] => false end.

(* a re-encoding of the line ends of a CR-free string: every LF is spelled, as the
   choice list says, LF (0), CR LF (1) or a lone CR (2); choices are consumed in
   order.  A lone CR directly followed by an LF of the text would read as one
   CR LF pair, so the encoder writes CR LF there. *)
Fixpoint reencode (choice : list Z) (s : str) : str :=
  match s with
  | [] => []
  | c :: s' =>
      if c =? 10 then
        match choice with
        | [] => 10 :: reencode [] s'
        | k :: ch =>
            if k =? 1 then 13 :: 10 :: reencode ch s'
            else if (k =? 2) && negb (starts_lf s') then 13 :: reencode ch s'
            else if k =? 2 then 13 :: 10 :: reencode ch s'
            else 10 :: reencode ch s'
        end
      else c :: reencode choice s'
  end.

Definition no_cr (s : str) : Prop := mem_z CR s = false.

Lemma normalize_plain c s : c <> 13 -> c <> 0 -> normalize (c :: s) = c :: normalize s.
Proof.
  intros H1 H2. simpl. rewrite (proj2 (Z.eqb_neq c 13) H1), (proj2 (Z.eqb_neq c 0) H2). reflexivity.
Qed.

Lemma normalize_cr_lf s : normalize (13 :: 10 :: s) = 10 :: normalize s.
Proof. reflexivity. Qed.

Lemma normalize_cr_other s : starts_lf s = false -> normalize (13 :: s) = 10 :: normalize s.
Proof.
  intros H. destruct s as [|d s]; [reflexivity|]. simpl in *. change (13 =? 13) with true. cbn iota.
  rewrite H. reflexivity.
Qed.

Lemma normalize_nul_cons s : normalize (0 :: s) = 65533 :: normalize s.
Proof. reflexivity. Qed.

Lemma reencode_other ch c s : c <> 10 -> reencode ch (c :: s) = c :: reencode ch s.
Proof. intros H. simpl. rewrite (proj2 (Z.eqb_neq c 10) H). reflexivity. Qed.

Lemma starts_lf_reencode ch s : starts_lf s = false -> starts_lf (reencode ch s) = false.
Proof.
  destruct s as [|c s]; intros H; [reflexivity|]. simpl in H.
  rewrite reencode_other by (apply Z.eqb_neq; exact H). simpl. exact H.
Qed.

Theorem normalize_reencode s : no_cr s -> forall choice, normalize (reencode choice s) = normalize s.
Proof.
  unfold no_cr, mem_z, CR. induction s as [|c s IH]; intros H choice; [reflexivity|].
  cbn [existsb] in H. apply Bool.orb_false_iff in H. destruct H as [Hc Hs].
  apply Z.eqb_neq in Hc. assert (Hc' : c <> 13) by congruence.
  destruct (Z.eq_dec c 10) as [->|N10].
  - rewrite (normalize_plain 10 s) by lia. cbn [reencode]. change (10 =? 10) with true. cbn iota.
    destruct choice as [|k ch].
    + rewrite normalize_plain by lia. rewrite IH; auto.
    + destruct (k =? 1).
      { rewrite normalize_cr_lf, IH; auto. }
      destruct (k =? 2); cbn [andb].
      * destruct (starts_lf s) eqn:SL; cbn [negb].
        { rewrite normalize_cr_lf, IH; auto. }
        { rewrite normalize_cr_other; [rewrite IH; auto|]. apply starts_lf_reencode; assumption. }
      * rewrite normalize_plain by lia. rewrite IH; auto.
  - rewrite reencode_other by assumption.
    destruct (Z.eq_dec c 0) as [->|N0].
    + rewrite !normalize_nul_cons, IH; auto.
    + rewrite !normalize_plain by assumption. rewrite IH; auto.
Qed.

Definition nul_to_fffd (s : str) : str := map (fun c => if c =? 0 then FFFD else c) s.

Lemma starts_lf_nul s : starts_lf (nul_to_fffd s) = starts_lf s.
Proof.
  destruct s as [|d s]; [reflexivity|]. unfold nul_to_fffd, FFFD. simpl.
  destruct (Z.eqb_spec d 0) as [->|N]; reflexivity.
Qed.

Theorem normalize_nul s : normalize (nul_to_fffd s) = normalize s.
Proof.
  assert (G : forall n s, (length s <= n)%nat -> normalize (nul_to_fffd s) = normalize s).
  { induction n as [|n IH]; intros t Hn; [destruct t; [reflexivity | simpl in Hn; lia]|].
    destruct t as [|c t]; [reflexivity|].
    change (nul_to_fffd (c :: t)) with ((if c =? 0 then FFFD else c) :: nul_to_fffd t).
    destruct (Z.eq_dec c 0) as [->|N0].
    { change (0 =? 0) with true. cbn iota. unfold FFFD. rewrite normalize_plain by lia.
      rewrite normalize_nul_cons. f_equal. apply IH. simpl in Hn. lia. }
    rewrite (proj2 (Z.eqb_neq c 0) N0).
    destruct (Z.eq_dec c 13) as [->|N13].
    - destruct (starts_lf t) eqn:SL.
      + destruct t as [|d t]; [discriminate|]. simpl in SL. apply Z.eqb_eq in SL. subst d.
        change (nul_to_fffd (10 :: t)) with (10 :: nul_to_fffd t).
        rewrite !normalize_cr_lf. f_equal. apply IH. simpl in Hn. lia.
      + rewrite !normalize_cr_other; [|exact SL|rewrite starts_lf_nul; exact SL].
        f_equal. apply IH. simpl in Hn. lia.
    - rewrite !normalize_plain by assumption. f_equal. apply IH. simpl in Hn. lia. }
  apply (G (length s)). lia.
Qed.

Theorem normalize_clean s : mem_z CR (normalize s) = false /\ mem_z NUL (normalize s) = false.
Proof.
  unfold mem_z, CR, NUL.
  assert (G : forall n s, (length s <= n)%nat ->
              existsb (Z.eqb 13) (normalize s) = false /\ existsb (Z.eqb 0) (normalize s) = false).
  { induction n as [|n IH]; intros t Hn; [destruct t; [split; reflexivity | simpl in Hn; lia]|].
    destruct t as [|c t]; [split; reflexivity|].
    destruct (Z.eq_dec c 0) as [->|N0].
    { rewrite normalize_nul_cons. cbn [existsb]. change (13 =? 65533) with false. change (0 =? 65533) with false.
      apply IH. simpl in Hn. lia. }
    destruct (Z.eq_dec c 13) as [->|N13].
    - destruct (starts_lf t) eqn:SL.
      + destruct t as [|d t]; [discriminate|]. simpl in SL. apply Z.eqb_eq in SL. subst d.
        rewrite normalize_cr_lf. cbn [existsb]. change (13 =? 10) with false. change (0 =? 10) with false.
        apply IH. simpl in Hn. lia.
      + rewrite normalize_cr_other by exact SL. cbn [existsb]. change (13 =? 10) with false. change (0 =? 10) with false.
        apply IH. simpl in Hn. lia.
    - rewrite normalize_plain by assumption. cbn [existsb].
      rewrite (proj2 (Z.eqb_neq 13 c)) by congruence. rewrite (proj2 (Z.eqb_neq 0 c)) by congruence.
      apply IH. simpl in Hn. lia. }
  apply (G (length s)). lia.
Qed.

Theorem normalize_id s : mem_z CR s = false -> mem_z NUL s = false -> normalize s = s.
Proof.
  unfold mem_z, CR, NUL. induction s as [|c s IH]; intros H1 H2; [reflexivity|]. cbn [existsb] in H1, H2.
  apply Bool.orb_false_iff in H1. apply Bool.orb_false_iff in H2. destruct H1 as [A1 B1], H2 as [A2 B2].
  apply Z.eqb_neq in A1. apply Z.eqb_neq in A2.
  rewrite normalize_plain by congruence. f_equal. apply IH; assumption.
Qed.

Theorem normalize_idempotent s : normalize (normalize s) = normalize s.
Proof. destruct (normalize_clean s) as [A B]. apply normalize_id; assumption. Qed.

Definition crlf (s : str) : str := flat_map (fun c => if c =? 10 then [13; 10] else [c]) s.

Lemma crlf_is_reencode s : crlf s = reencode (map (fun _ => 1) s) s.
Proof.
  unfold crlf.
  assert (G : forall s k, (length s <= length k)%nat -> Forall (fun x => x = 1) k ->
              flat_map (fun c => if c =? 10 then [13; 10] else [c]) s = reencode k s).
  { induction s0 as [|c t IH]; intros k Hk Hf; [reflexivity|]. cbn [flat_map reencode].
    destruct (Z.eqb_spec c 10).
    - destruct k as [|x k]; [simpl in Hk; lia|]. inversion Hf; subst. change (1 =? 1) with true. cbn iota.
      simpl. f_equal. f_equal. apply IH; [simpl in Hk; lia | assumption].
    - simpl. f_equal. apply IH; [simpl in Hk; lia | assumption]. }
  apply G; [rewrite map_length; lia|]. apply Forall_forall. intros x Hx. apply in_map_iff in Hx.
  destruct Hx as [y [<- _]]. reflexivity.
Qed.

Theorem normalize_crlf s : no_cr s -> normalize (crlf s) = normalize s.
Proof. intros H. rewrite crlf_is_reencode. apply normalize_reencode, H. Qed.

Theorem normalize_cr_only s : no_cr s -> normalize (reencode (map (fun _ => 2) s) s) = normalize s.
Proof. intros H. apply normalize_reencode, H. Qed.
