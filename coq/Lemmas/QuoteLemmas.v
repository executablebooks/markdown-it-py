(* C06, row level: three rows of the line tables, each computed on its own.  For a tab-free quoted line
   '>' ' ' blank^k rest  the row that bq_strip writes (bq_strip_prefix), and the rows the line scanner computes for
   the un-prefixed lines  blank^k LF  and  blank^k c body LF  (scan_blank_line, scan_text_line).  Put side by side they
   differ by the two characters of the marker; no statement here says so. *)
From MD Require Import Base.Py Base.Str Model.Utils Model.StateBlock Model.Block Lemmas.StrLemmas
     Lemmas.TabCols.
From Coq Require Import ZifyBool.

Definition spaces_at (src : str) (pos : Z) (k : nat) : Prop :=
  forall i, (i < k)%nat -> nth_error src (Z.to_nat pos + i) = Some 32.

Definition stop_at (src : str) (p maximum : Z) : Prop :=
  maximum <= p \/ exists c, nth_error src (Z.to_nat p) = Some c /\ is_space c = false.

Lemma py_idx_nth (s : str) pos c : 0 <= pos -> nth_error s (Z.to_nat pos) = Some c -> py_idx s pos = Ok c.
Proof.
  intros Hp H. unfold py_idx, get. assert (E : (pos <? 0) = false) by lia. cbv zeta. rewrite !E, H. reflexivity.
Qed.

Lemma spaces_at_S src pos k : 0 <= pos -> spaces_at src pos (S k) ->
  nth_error src (Z.to_nat pos) = Some 32 /\ spaces_at src (pos + 1) k.
Proof.
  intros Hp H. split.
  - specialize (H O ltac:(lia)). rewrite Nat.add_0_r in H. exact H.
  - intros i Hi. specialize (H (S i) ltac:(lia)).
    replace (Z.to_nat (pos + 1) + i)%nat with (Z.to_nat pos + S i)%nat by lia. exact H.
Qed.

Lemma bq_blanks_spaces : forall k fuel src pos maximum offset bs adj,
  0 <= pos -> (k < fuel)%nat -> pos + Z.of_nat k <= maximum ->
  spaces_at src pos k -> stop_at src (pos + Z.of_nat k) maximum ->
  bq_blanks fuel src pos maximum offset bs adj = Ok (pos + Z.of_nat k, offset + Z.of_nat k).
Proof.
  induction k as [|k IH]; intros fuel src pos maximum offset bs adj Hp Hf Hm Hs Hstop.
  - destruct fuel as [|f]; [lia|]. cbn [bq_blanks]. rewrite !Z.add_0_r in *.
    destruct (pos <? maximum) eqn:E; cbn [negb]; [|reflexivity].
    destruct Hstop as [Hge | (c & Hc & Hns)]; [lia|].
    rewrite (py_idx_nth _ _ _ Hp Hc). cbn [bind]. rewrite Hns. reflexivity.
  - destruct fuel as [|f]; [lia|]. cbn [bq_blanks].
    assert (E : (pos <? maximum) = true) by lia. rewrite E. cbn [negb].
    destruct (spaces_at_S _ _ _ Hp Hs) as [H0 Hs'].
    rewrite (py_idx_nth _ _ _ Hp H0). cbn [bind].
    change (is_space 32) with true. cbv iota. change (32 =? 9) with false. cbv iota.
    rewrite (IH f src (pos + 1) maximum (offset + 1) bs adj); try lia; try assumption.
    + f_equal. f_equal; lia.
    + replace (pos + 1 + Z.of_nat k) with (pos + Z.of_nat (S k)) by lia. exact Hstop.
Qed.

Theorem bq_strip_prefix src pos0 maximum sc bs k :
  0 <= pos0 -> nth_error src (Z.to_nat (pos0 + 1)) = Some 32 ->
  spaces_at src (pos0 + 2) k -> stop_at src (pos0 + 2 + Z.of_nat k) maximum ->
  pos0 + 2 + Z.of_nat k <= maximum -> maximum <= len src ->
  bq_strip src pos0 maximum sc bs =
    Ok (mkBq (pos0 + 2) (Z.of_nat k) (Z.of_nat k) (bs + sc + 2) (maximum <=? pos0 + 2 + Z.of_nat k)).
Proof.
  intros Hp H1 Hs Hstop Hm Hl. unfold bq_strip.
  assert (Hp1 : 0 <= pos0 + 1) by lia.
  rewrite (char_at_nonneg src (pos0 + 1) Hp1), H1. cbv iota beta.
  replace (pos0 + 1 + 1) with (pos0 + 2) by lia.
  rewrite (bq_blanks_spaces k (S (length src)) src (pos0 + 2) maximum (sc + 1 + 1) bs false); try lia; try assumption.
  - cbn [bind]. f_equal. f_equal; lia.
  - unfold len in Hl. lia.
Qed.

Lemma len_repeat_z {A} (x : A) k : len (repeat_z x k) = Z.of_nat k.
Proof. unfold len. induction k as [|k IH]; cbn [repeat_z length]; lia. Qed.

Lemma spaces_blank k : Forall blank (repeat_z 32 k).
Proof. induction k as [|k IH]; cbn [repeat_z]; constructor; [left; reflexivity | exact IH]. Qed.

Theorem scan_blank_line k n bM eM tS sC start pos :
  scan_loop n (mkScan bM eM tS sC false start 0 0) pos (repeat_z 32 k ++ [10])
  = mkScan (start :: bM) (pos + Z.of_nat k :: eM) (Z.of_nat k :: tS) (Z.of_nat k :: sC) false (pos + Z.of_nat k + 1) 0 0.
Proof.
  pose proof (scan_line (mkLine (repeat_z 32 k) []) n bM eM tS sC start pos) as L.
  unfold line_text in L. cbn [l_ws l_rest app] in L. rewrite !len_app, len_repeat_z, cols_spaces in L.
  change (len [10]) with 1 in L. change (len []) with 0 in L. rewrite Z.add_0_l, Z.add_0_r in L.
  rewrite L; [f_equal; lia | | intros N; contradiction N; reflexivity].
  split; [apply spaces_blank | left; reflexivity].
Qed.

Theorem scan_text_line k c body n bM eM tS sC start pos :
  is_space c = false -> c <> 10 -> (forall x, In x body -> x <> 10) ->
  pos + Z.of_nat k + 1 + len body <= n - 1 ->
  scan_loop n (mkScan bM eM tS sC false start 0 0) pos (repeat_z 32 k ++ c :: body ++ [10])
  = mkScan (start :: bM) (pos + Z.of_nat k + 1 + len body :: eM) (Z.of_nat k :: tS) (Z.of_nat k :: sC)
           false (pos + Z.of_nat k + 1 + len body + 1) 0 0.
Proof.
  intros Hs Hc Hno Hn.
  pose proof (scan_line (mkLine (repeat_z 32 k) (c :: body)) n bM eM tS sC start pos) as L.
  unfold line_text in L. cbn [l_ws l_rest] in L. rewrite !len_app, len_cons, len_repeat_z, cols_spaces in L.
  change (len [10]) with 1 in L. rewrite Z.add_0_l in L.
  change (repeat_z 32 k ++ c :: body ++ [10]) with (repeat_z 32 k ++ (c :: body) ++ [10]).
  rewrite L; [f_equal; try lia; f_equal; lia | | intros _; lia].
  split; [apply spaces_blank|]. right. exists c, body. auto.
Qed.
