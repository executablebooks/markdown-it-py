(* C02, block half: every block rule appends a BALANCED segment of tokens whose levels are the
   running depth, and leaves the state's level where it was; hence so does the block loop, at
   any container depth, for every source and every configuration. *)
From MD Require Import Base.Py Model.Token Model.StateBlock Model.Block Lemmas.StreamWF.
From MD Require Import Lemmas.BlockEff.
From Coq Require Import ZifyBool.

Inductive bal : Z -> list token -> Prop :=
| bal_nil d : bal d []
| bal_leaf d t rest : tnesting t = 0 -> tlevel t = d -> bal d rest -> bal d (t :: rest)
| bal_pair d o inner c rest :
    tnesting o = 1 -> tlevel o = d -> bal (d + 1) inner ->
    tnesting c = -1 -> tlevel c = d -> bal d rest -> bal d (o :: inner ++ c :: rest).

Lemma bal_app d a : bal d a -> forall b, bal d b -> bal d (a ++ b).
Proof.
  induction 1 as [d | d t rest Hn Hl _ IH | d o inner c rest Ho Hol Hi _ Hc Hcl _ IH]; intros b Hb.
  - exact Hb.
  - cbn [app]. apply bal_leaf; auto.
  - cbn [app]. rewrite <- app_assoc. cbn [app]. apply bal_pair; auto.
Qed.

Lemma bal_one d t : tnesting t = 0 -> tlevel t = d -> bal d [t].
Proof. intros. apply bal_leaf; auto. constructor. Qed.

Lemma bal_wrap d o inner c : tnesting o = 1 -> tlevel o = d -> bal (d + 1) inner -> tnesting c = -1 -> tlevel c = d ->
  bal d (o :: inner ++ [c]).
Proof. intros. apply bal_pair; auto. constructor. Qed.

Lemma bal_levels_k d ts : bal d ts -> forall k, levels_ok k d -> levels_ok (ts ++ k) d.
Proof.
  induction 1 as [d | d t rest Hn Hl _ IH | d o inner c rest Ho Hol _ II Hc Hcl _ IR]; intros k Hk.
  - exact Hk.
  - cbn [app levels_ok]. rewrite Hn. change (0 <? 0) with false. cbv iota. split; [exact Hl | apply IH, Hk].
  - cbn [app levels_ok]. rewrite Ho. change (1 <? 0) with false. change (0 <? 1) with true. cbv iota.
    split; [exact Hol|]. rewrite <- app_assoc. apply II.
    cbn [app levels_ok]. rewrite Hc. change (-1 <? 0) with true. change (0 <? -1) with false. cbv iota.
    replace (d + 1 - 1) with d by lia. split; [exact Hcl | apply IR, Hk].
Qed.

Theorem bal_levels_ok d ts : bal d ts -> levels_ok ts d.
Proof. intros H. rewrite <- (app_nil_r ts). apply (bal_levels_k d ts H []). exact I. Qed.

Fixpoint nest_sum (ts : list token) : Z := match ts with [] => 0 | t :: r => tnesting t + nest_sum r end.
Lemma nest_sum_app a b : nest_sum (a ++ b) = nest_sum a + nest_sum b.
Proof. induction a as [|t a IH]; cbn [app nest_sum]; lia. Qed.
Theorem bal_nest_sum d ts : bal d ts -> nest_sum ts = 0.
Proof.
  induction 1 as [d | d t rest Hn _ _ IH | d o inner c rest Ho _ _ II Hc _ _ IR]; cbn [nest_sum]; try lia.
  rewrite nest_sum_app. cbn [nest_sum]. lia.
Qed.

Theorem bal_summary d ts : bal d ts -> levels_ok ts d /\ nest_sum ts = 0.
Proof. intros H. split; [apply bal_levels_ok, H | eapply bal_nest_sum, H]. Qed.

Definition ext (st st' : bstate) : Prop :=
  b_level st' = b_level st /\ exists seg, b_tokens st' = b_tokens st ++ seg /\ bal (b_level st) seg.

Lemma ext_refl st : ext st st.
Proof. split; [reflexivity|]. exists []. rewrite app_nil_r. split; [reflexivity | constructor]. Qed.

Lemma ext_trans a b c : ext a b -> ext b c -> ext a c.
Proof.
  intros [L1 (s1 & T1 & B1)] [L2 (s2 & T2 & B2)]. split; [congruence|].
  exists (s1 ++ s2). split; [rewrite T2, T1, app_assoc; reflexivity|].
  apply bal_app; [exact B1 | rewrite <- L1; exact B2].
Qed.

Lemma same_tl_ext a b : same_tl a b -> ext a b.
Proof. intros [T L]. split; [exact L|]. exists []. rewrite app_nil_r. split; [exact T | constructor]. Qed.

Definition keeps (f : token -> token) : Prop := forall t, tnesting (f t) = tnesting t /\ tlevel (f t) = tlevel t.

Lemma plain_keeps f : plain f -> keeps f.
Proof. intros P t. destruct (P t) as (_ & _ & N & L & _). split; assumption. Qed.

Lemma ext_push0 st ty tag f : keeps f -> ext st (bpush st ty tag 0 f).
Proof.
  intros K. split; [reflexivity|]. eexists. split; [apply bpush_tokens|].
  apply bal_one; destruct (K (set_level (set_block (new_token ty tag 0) true) (if 0 <? 0 then b_level st - 1 else b_level st))) as [N L].
  - rewrite N. reflexivity.
  - rewrite L. reflexivity.
Qed.

Lemma ext_wrap st ty tag f mid ty' tag' f' :
  keeps f -> keeps f' -> ext (bpush st ty tag 1 f) mid -> ext st (bpush mid ty' tag' (-1) f').
Proof.
  intros K K' [L (seg & T & B)]. rewrite bpush_lvl in L, B. change (0 <? 1) with true in *. change (1 <? 0) with false in *. cbv iota in *.
  split.
  - rewrite bpush_lvl. change (0 <? -1) with false. change (-1 <? 0) with true. cbv iota. lia.
  - eexists. split.
    + rewrite bpush_tokens, T, bpush_tokens. rewrite <- !app_assoc. cbn [app]. reflexivity.
    + change (1 <? 0) with false. change (-1 <? 0) with true. cbv iota.
      apply bal_wrap.
      * destruct (K (set_level (set_block (new_token ty tag 1) true) (b_level st))) as [N _]. rewrite N. reflexivity.
      * destruct (K (set_level (set_block (new_token ty tag 1) true) (b_level st))) as [_ Lv]. rewrite Lv. reflexivity.
      * exact B.
      * destruct (K' (set_level (set_block (new_token ty' tag' (-1)) true) (b_level mid - 1))) as [N _]. rewrite N. reflexivity.
      * destruct (K' (set_level (set_block (new_token ty' tag' (-1)) true) (b_level mid - 1))) as [_ Lv]. rewrite Lv. cbn. lia.
Qed.

Lemma bal_retouch d a : bal d a -> forall b, Forall2 retouch a b -> bal d b.
Proof.
  induction 1 as [d | d t rest Hn Hl _ IH | d o inner c rest Ho Hol _ II Hc Hcl _ IR]; intros b F.
  - inversion F. constructor.
  - inversion F as [|? y ? b' (m & h & ->) F']. apply bal_leaf; [exact Hn | exact Hl | apply IH, F'].
  - inversion F as [|? o' ? b1 (m & h & ->) F1].
    apply Forall2_app_inv_l in F1. destruct F1 as (i' & r1 & Fi & Fr & ->).
    inversion Fr as [|? c' ? rest' (m' & h' & ->) Frest].
    apply bal_pair; try assumption; [apply II, Fi | apply IR, Frest].
Qed.

Ltac keeps_tac := let t := fresh "t" in intros t; split; reflexivity.
Lemma keeps_id : keeps (fun t => t). Proof. keeps_tac. Qed.
Lemma keeps_comp f g : keeps f -> keeps g -> keeps (fun t => f (g t)).
Proof. intros F G t. destruct (F (g t)) as [A B], (G t) as [C D]. split; congruence. Qed.
Lemma keeps_map a b : keeps (map_tok a b). Proof. keeps_tac. Qed.
Lemma keeps_set_map v : keeps (fun t => set_map t v). Proof. keeps_tac. Qed.
Lemma keeps_set_markup v : keeps (fun t => set_markup t v). Proof. keeps_tac. Qed.
Lemma keeps_set_content v : keeps (fun t => set_content t v). Proof. keeps_tac. Qed.
Lemma keeps_set_info v : keeps (fun t => set_info t v). Proof. keeps_tac. Qed.
Lemma keeps_set_children v : keeps (fun t => set_children t v). Proof. keeps_tac. Qed.
Lemma keeps_set_meta v : keeps (fun t => set_meta t v). Proof. keeps_tac. Qed.
Lemma keeps_set_attrs v : keeps (fun t => set_attrs t v). Proof. keeps_tac. Qed.
Lemma keeps_set_hidden v : keeps (fun t => set_hidden t v). Proof. keeps_tac. Qed.

Section Ext.
Context (cfg : bcfg) (rf cf : str -> str).

Lemma eff_ext A (C : bstate -> bstate -> Prop) (HC : forall a b, C a b -> ext a b) a b : eff cfg rf A C a b -> ext a b.
Proof.
  induction 1 as [a b Cab | a | a b c _ E1 _ E2 | a n ty tag f _ _ F | a n oty cty tag f f' b _ _ F F' _ E
                  | a b X _ E L _ _ Tc | a X label title raw m S _ _ _ | a a' b X S _ _ E S' _ _].
  - exact (HC a b Cab).
  - apply ext_refl.
  - exact (ext_trans a b c E1 E2).
  - apply ext_push0, plain_keeps, F.
  - exact (ext_wrap a oty tag f b cty tag f' (plain_keeps f F) (plain_keeps f' F') E).
  - destruct E as [Lb (seg & T & B)]. split; [congruence|].
    rewrite T in Tc. apply touched_app in Tc. destruct Tc as (seg' & TX & Fs).
    exists seg'. split; [exact TX | exact (bal_retouch _ _ B _ Fs)].
  - apply same_tl_ext, S.
  - exact (ext_trans a a' X (same_tl_ext a a' S) (ext_trans a' b X E (same_tl_ext b X S'))).
Qed.

Definition rec_ok (rec : rec_t) : Prop := forall s a b s', rec s a b = Ok s' -> ext s s'.
Definition term_ok (term : term_t) : Prop := forall ch s a b r s', term ch s a b = Ok (r, s') -> ext s s'.

Lemma rec_ok_eff A rec : rec_ok rec -> rec_eff cfg rf A ext rec.
Proof. intros R s a b s' H. apply eff_call, (R s a b s' H). Qed.
Lemma term_ok_eff A term : term_ok term -> term_eff cfg rf A ext term.
Proof. intros T ch s a b r s' _ H. apply eff_call, (T ch s a b r s' H). Qed.

Lemma ext_of a b : eff cfg rf any_rule ext a b -> ext a b.
Proof. apply eff_ext. intros x y E. exact E. Qed.

Lemma apply_bq_same st line q st' : apply_bq st line q = Ok st' -> same_tl st st'.
Proof. intros H. exact (proj1 (apply_bq_frame st line q st' H)). Qed.

Lemma apply_rule_ext rec term (R : rec_ok rec) (T : term_ok term) name st sl el silent b st' :
  apply_rule cfg rf cf rec term name st sl el silent = Ok (b, st') -> ext st st'.
Proof.
  intros H. exact (ext_of _ _ (apply_rule_eff cfg rf cf _ _ rec term (rec_ok_eff _ rec R) (term_ok_eff _ term T) name I _ _ _ _ _ _ H)).
Qed.

Lemma terminated_ok : term_ok (terminated cfg rf cf).
Proof. intros ch s a b r s' H. exact (ext_of _ _ (terminated_run cfg rf cf any_rule ext (fun _ _ _ => I) ch s a b r s' H)). Qed.

Lemma try_rules_ext rec (R : rec_ok rec) : forall names st l el st',
  try_rules cfg rf cf rec names st l el = Ok st' -> ext st st'.
Proof.
  intros names st l el st' H.
  exact (ext_of _ _ (try_rules_eff cfg rf cf any_rule ext (fun _ _ _ => I) rec (rec_ok_eff _ rec R) names _ _ _ _ (fun _ _ => I) H)).
Qed.

Lemma tokenize_ok : forall depth, rec_ok (tokenize cfg rf cf depth).
Proof.
  intros depth s a b s' H.
  exact (ext_of _ _ (tokenize_eff cfg rf cf any_rule ext (fun _ _ _ => I) (fun _ _ => I) depth s a b s' H)).
Qed.

(* ParserBlock.parse: for EVERY source, env and configuration, what the block parser appends to the
   token list is a balanced segment at depth 0 -- every level is the running depth, nesting sums to
   zero, openers and closers pair up *)
Theorem block_parse_balanced src env toks st :
  block_parse cfg rf cf src env toks = Ok st ->
  exists seg, b_tokens st = toks ++ seg /\ bal 0 seg /\ levels_ok seg 0 /\ nest_sum seg = 0 /\ b_level st = 0.
Proof.
  intros H.
  destruct (ext_of _ _ (block_parse_eff cfg rf cf any_rule ext (fun _ _ _ => I) (fun _ _ => I) src env toks st H)) as [L (seg & Tk & B)].
  exists seg. repeat split; [exact Tk | exact B | apply bal_levels_ok, B | eapply bal_nest_sum, B | exact L].
Qed.

End Ext.

(* the quote loop reads no configuration: any will do to name its steps *)
Lemma bq_loop_ext term (T : term_ok term) : forall fuel st sv nl el lle r sv' st',
  bq_loop fuel term st sv nl el lle = Ok (r, sv', st') -> ext st st'.
Proof.
  intros fuel st sv nl el lle r sv' st' H.
  exact (ext_of (mkBCfg [] (fun _ => []) false 0 false false) (fun s => s) _ _
                (bq_loop_eff _ _ _ _ term (term_ok_eff _ _ _ term T) _ _ _ _ _ _ _ _ _ H)).
Qed.
