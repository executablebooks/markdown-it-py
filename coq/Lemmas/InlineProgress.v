(* C01 / C20, inline tokenizer: every rule that succeeds moves the position forward and skipToken
   always moves it forward (Lemmas/InlineSafe.v carries this with the no-raise invariant); hence the
   tokenizer loop and the label loop run at most posMax - pos times: above that bound their answer
   does not depend on the fuel, and the fuel they are given (len src + 2) lies above it. *)
From MD Require Import Base.Py Base.Str Model.Inline Lemmas.InlineSafe.
From Coq Require Import ZifyBool.

(* the call sites: fuel len src + 2 lies above the bound *)
Lemma tokenize_fuel_above st : PI st -> (Z.to_nat (i_posMax st - i_pos st) < S (S (length (i_src st))))%nat.
Proof. intros (P0 & P1 & _). unfold len in P1. lia. Qed.

Section Fuel.
Context (cfg : icfg) (rf cf lt : str -> str).
Context (NOLINKIFY : ic_linkify cfg = false).

(* at the nesting cap the loop tries no rule and keeps the verdict it came in with: with [true] it stays where it
   is and runs out of fuel, whatever the fuel (tokenize never gets there: it starts with [false]) *)
Lemma tok_while_spin F st endp : i_pos st < endp -> ic_maxNesting cfg <= i_level st ->
  forall f, tok_while cfg rf cf lt f F st endp true = OutOfFuel.
Proof.
  intros HL HC. induction f as [|f IH]; [reflexivity|]. cbn [tok_while].
  assert (E1 : negb (i_pos st <? endp) = false) by lia. assert (E2 : (i_level st <? ic_maxNesting cfg) = false) by lia.
  assert (E3 : (endp <=? i_pos st) = false) by lia. rewrite E1, E2. cbn [bind]. rewrite E3. exact IH.
Qed.

Lemma tok_while_fuel F (HF : FN F) : forall f1 f2 st endp ok, PI st -> endp = i_posMax st ->
  (Z.to_nat (endp - i_pos st) < f1)%nat -> (Z.to_nat (endp - i_pos st) < f2)%nat ->
  tok_while cfg rf cf lt f1 F st endp ok = tok_while cfg rf cf lt f2 F st endp ok.
Proof.
  induction f1 as [|f1 IH]; intros f2 st endp ok HP EE B1 B2; [lia|]. destruct f2 as [|f2]; [lia|].
  cbn [tok_while]. subst endp.
  destruct (negb (i_pos st <? i_posMax st)) eqn:NE; [reflexivity|].
  assert (HL : i_pos st < i_posMax st) by lia. pose proof HP as (P0 & P1 & PD).
  destruct (i_level st <? ic_maxNesting cfg) eqn:LV.
  - destruct (first_rule cfg rf cf lt F (ic_rules cfg) st false false) as [[ok1 st1]|e|] eqn:FR; cbn [bind]; try reflexivity.
    pose proof (safe_ok_inv _ _ _ (first_rule_safe cfg rf cf lt NOLINKIFY F HF (ic_rules cfg) st false false HP HL) FR) as (K1 & F1 & G1).
    cbn [fst snd] in *.
    pose proof K1 as (HP1 & S1 & M1 & _).
    destruct ok1.
    + specialize (G1 eq_refl). destruct (i_posMax st <=? i_pos st1); [reflexivity|].
      apply IH; [exact HP1 | congruence | lia | lia].
    + specialize (F1 eq_refl). destruct (py_idx (i_src st1) (i_pos st1)) as [c|e|]; cbn [bind]; try reflexivity.
      apply IH; [|cbn; congruence | cbn; lia | cbn; lia].
      destruct HP1 as (Y0 & Y1 & YD). split; [cbn; lia|]. split; [exact Y1 | exact YD].
  - cbn [bind]. destruct ok; [rewrite !tok_while_spin by lia; reflexivity|].
    destruct (py_idx (i_src st) (i_pos st)) as [c|e|]; cbn [bind]; try reflexivity.
    apply IH; [|reflexivity | cbn; lia | cbn; lia].
    split; [cbn; lia|]. split; [exact P1 | exact PD].
Qed.

Lemma label_loop_fuel F (HF : FN F) : forall f1 f2 st level dn oldPos, PI st ->
  (Z.to_nat (i_posMax st - i_pos st) < f1)%nat -> (Z.to_nat (i_posMax st - i_pos st) < f2)%nat ->
  label_loop F f1 st level dn oldPos = label_loop F f2 st level dn oldPos.
Proof.
  induction f1 as [|f1 IH]; intros f2 st level dn oldPos HP B1 B2; [lia|]. destruct f2 as [|f2]; [lia|].
  cbn [label_loop].
  destruct (negb (i_pos st <? i_posMax st)) eqn:NE; [reflexivity|].
  destruct (py_idx (i_src st) (i_pos st)) as [marker|e|]; cbn [bind]; try reflexivity.
  destruct ((marker =? 93) && (level - 1 =? 0)); [reflexivity|]. cbv zeta.
  destruct (f_skip F st) as [st1|e|] eqn:SK; cbn [bind]; try reflexivity.
  destruct HF as (_ & HS & _).
  pose proof (safe_ok_inv _ _ _ (HS st HP ltac:(lia)) SK) as (K1 & ADV). pose proof K1 as (HP1 & _ & M1 & _).
  assert (R : forall lv, label_loop F f1 st1 lv dn oldPos = label_loop F f2 st1 lv dn oldPos) by (intros lv; apply IH; [exact HP1 | lia | lia]).
  destruct (marker =? 91); [|apply R]. destruct (i_pos st =? i_pos st1 - 1); [apply R|]. destruct dn; [reflexivity | apply R].
Qed.

End Fuel.

Section Depth.
Context (cfg : icfg) (rf cf lt : str -> str).
Context (NOLINKIFY : ic_linkify cfg = false) (ORDER : order_ok (ic_rules2 cfg) = true).

Theorem tok_while_fuel_any_depth d f1 f2 st : PI st ->
  (Z.to_nat (i_posMax st - i_pos st) < f1)%nat -> (Z.to_nat (i_posMax st - i_pos st) < f2)%nat ->
  tok_while cfg rf cf lt f1 (ifs cfg rf cf lt d) st (i_posMax st) false = tok_while cfg rf cf lt f2 (ifs cfg rf cf lt d) st (i_posMax st) false.
Proof.
  intros HP B1 B2. apply (tok_while_fuel cfg rf cf lt NOLINKIFY); try assumption; [|reflexivity]. apply ifs_FN; assumption.
Qed.

Theorem label_loop_fuel_any_depth d f1 f2 st level dn oldPos : PI st ->
  (Z.to_nat (i_posMax st - i_pos st) < f1)%nat -> (Z.to_nat (i_posMax st - i_pos st) < f2)%nat ->
  label_loop (ifs cfg rf cf lt d) f1 st level dn oldPos = label_loop (ifs cfg rf cf lt d) f2 st level dn oldPos.
Proof. intros HP B1 B2. apply (label_loop_fuel cfg); try assumption. apply ifs_FN; assumption. Qed.

Theorem skip_token_advances d st st' : PI st -> i_pos st < i_posMax st ->
  skip_token cfg rf cf lt (ifs cfg rf cf lt d) st = Ok st' -> i_pos st < i_pos st'.
Proof.
  intros HP HL E. pose proof (skip_token_safe cfg rf cf lt NOLINKIFY _ (ifs_FN cfg rf cf lt NOLINKIFY ORDER d) st HP HL) as S.
  rewrite E in S. exact (proj2 S).
Qed.

Theorem first_rule_progress d names st silent bump ok st' : PI st -> i_pos st < i_posMax st ->
  first_rule cfg rf cf lt (ifs cfg rf cf lt d) names st silent bump = Ok (ok, st') ->
  if ok then i_pos st < i_pos st' else i_pos st' = i_pos st.
Proof.
  intros HP HL E. pose proof (first_rule_safe cfg rf cf lt NOLINKIFY _ (ifs_FN cfg rf cf lt NOLINKIFY ORDER d) names st silent bump HP HL) as S.
  rewrite E in S. destruct S as (_ & A & B). cbn [fst snd] in *. destruct ok; [exact (B eq_refl) | exact (A eq_refl)].
Qed.

End Depth.
