(* C04, end to end on the model: with options.html off (and no highlight callback), for EVERY
   source, env, rule configuration and value of the opaque dependencies, what MarkdownIt.render /
   renderInline returns is a concatenation of fixed renderer literals, "<tag" / "</tag" for tags of
   a fixed 26-name vocabulary, and escaped data -- no raw chunk.  Parser side (BlockKinds,
   InlineKinds) composed with the core chain and the renderer theorem (RenderLemmas). *)
From MD Require Import Base.Py Model.Token Model.StateBlock Model.Render Model.Core Model.Block Model.Inline
     Model.Pipeline Lemmas.RenderLemmas Lemmas.CoreLemmas Lemmas.BlockKinds Lemmas.InlineKinds.

Definition inline_tags : list str :=
  [s_br; s_code; s_a; [105; 109; 103]; s_s; [101; 109]; [115; 116; 114; 111; 110; 103]].
(* the tag vocabulary of the output: the block tags without the empty tag (which block_tags lists last,
   for the tokens that are never rendered through it) and the inline tags *)
Definition all_tags : list str := removelast block_tags ++ inline_tags.

Lemma no_empty_tag :
  ~ In [] all_tags /\ length all_tags = 26%nat
  /\ chunk_ok all_tags (CLit [60]) = false /\ chunk_ok all_tags (CLit [60; 47]) = false.
Proof.
  split; [|split; [reflexivity | split; reflexivity]].
  intros H. cbn in H. repeat (destruct H as [H|H]; [discriminate H|]). exact H.
Qed.

Lemma ok_tok_tt tags a b : ttype a = ttype b -> ttag a = ttag b -> ok_tok tags a -> ok_tok tags b.
Proof. unfold ok_tok, not_html. intros -> ->. exact (fun x => x). Qed.
Lemma ok_blk_tt tags a b : ttype a = ttype b -> ttag a = ttag b -> ok_blk tags a -> ok_blk tags b.
Proof. unfold ok_blk, ok_tok, not_html. intros -> ->. exact (fun x => x). Qed.

Lemma V_ok_tok cfg t : ic_html cfg = false -> V cfg t -> ok_tok all_tags t.
Proof.
  intros HH H. unfold V, is0 in H.
  repeat match goal with H : _ \/ _ |- _ => destruct H as [H|H] end;
    try (match goal with H : ic_html _ = true /\ _ |- _ => destruct H as [HT _]; rewrite HH in HT; discriminate HT end);
    match goal with H : ttype ?x = _ /\ ttag ?x = _ |- _ => destruct H as [A B] end; unfold ok_tok, not_html; rewrite A, B;
    (split; [first [right; reflexivity | left; apply mem_str_In; reflexivity] | split; reflexivity]).
Qed.

Lemma P_rule_kind_ok cfg n t : P_rule cfg n t -> exists ty tag, is ty tag t /\ kind_ok cfg ty tag = true.
Proof. intros H. destruct (P_rule_is cfg n t H) as (ty & tag & I & _ & _ & K). exists ty, tag. exact (conj I K). Qed.

Lemma P_rule_ok_tok cfg n t : c_html cfg = false -> P_rule cfg n t ->
  ok_blk all_tags t /\ (tchildren t = None \/ tchildren t = Some []).
Proof.
  intros HH H. destruct (P_rule_kind_ok _ _ _ H) as (ty & tag & (A & B & C & _) & K). split; [|exact C].
  unfold kind_ok in K. rewrite HH in K. destruct (str_eqb ty s_html_block) eqn:K3; [discriminate K|].
  apply andb_prop in K as [K1 K2]. apply Bool.negb_true_iff in K2.
  unfold ok_blk, ok_tok, not_html. rewrite A, B.
  apply Bool.orb_prop in K1 as [K1|K1]; [apply Bool.orb_prop in K1 as [K1|K1]|].
  - left. split; [left; apply in_or_app; left; apply mem_str_In, K1 | split; assumption].
  - left. split; [right; exact K1 | split; assumption].
  - right. split; [exact K1 | split; assumption].
Qed.

Definition fresh_ok (t : token) : Prop :=
  ok_blk all_tags t /\ (tchildren t = None \/ tchildren t = Some []).

Lemma fresh_ok_top t : fresh_ok t -> ok_top all_tags t.
Proof.
  intros [H C]. split; [exact H|]. intros _ ch E. destruct C as [C|C]; rewrite C in E; [discriminate E|].
  injection E as <-. constructor.
Qed.

(* MarkdownIt.parse (inl = false) and parseInline (inl = true): the core chain from the two initial states *)
Definition entry (cfg : pcfg) (rf cf lt : str -> str) (inl : bool) (src : str) (env : envt) : res (list token * envt) :=
  do st <- core_process cfg rf cf lt (p_core cfg) (mkC src env [] inl); Ok (c_tokens st, c_env st).

(* A pair of token predicates through the core chain.
   A is asked of a top-level token itself, C of the children of an inline token, E of env.  To the tokens it
   finds, the chain only adds block tokens, parses children in, rewrites text contents and joins text tokens. *)
Section Lift.
Context (cfg : pcfg) (rf cf lt : str -> str) (CS : chains_sub (p_block cfg)).
Context (A C : token -> Prop) (E : envt -> Prop).
Context (A_fields : forall t t', ttype t' = ttype t -> ttag t' = ttag t -> tattrs t' = tattrs t -> A t -> A t').
Context (C_fields : forall t t', ttype t' = ttype t -> ttag t' = ttag t -> tattrs t' = tattrs t -> C t -> C t').
Context (C_join : forall t, C t -> C (join_tok t)).
Context (C_parse : forall src env tokens r, E env -> Forall C tokens ->
                     inline_parse (p_inline cfg) rf cf lt src env tokens = Ok r -> Forall C r).
Context (A_block : forall n t, P_rule (p_block cfg) n t -> A t) (A_inline : A (new_token s_inline [] 0)).
Context (E_block : forall src env toks b, block_parse (p_block cfg) rf cf src env toks = Ok b -> E env -> E (b_env b)).

Definition tok_lift (t : token) : Prop :=
  A t /\ forall ch, tchildren t = Some ch -> str_eqb (ttype t) s_inline = true -> Forall C ch.

Lemma tok_lift_children t ch : A t -> Forall C ch -> tok_lift (set_children t (Some ch)).
Proof. intros HA HC. split; [eapply A_fields; [| | |exact HA]; reflexivity|]. intros ch' E' _. injection E' as <-. exact HC. Qed.

Lemma tok_lift_given t : tok_lift t -> str_eqb (ttype t) s_inline = true -> Forall C (match tchildren t with Some l => l | None => [] end).
Proof. intros [_ Hch] TI. destruct (tchildren t) as [l|]; [apply (Hch l eq_refl TI) | constructor]. Qed.

Lemma inline_all_inv : forall tokens env r,
  E env -> Forall tok_lift tokens -> inline_all cfg rf cf lt tokens env = Ok r -> Forall tok_lift r.
Proof.
  induction tokens as [|t rest IH]; intros env r HE H X; cbn [inline_all] in X; [rfinish X; constructor|].
  inversion H as [|? ? Ht Hr]; subst.
  apply bind_ok in X as (t' & E1 & X).
  apply bind_ok in X as (rest' & E2 & X).
  rfinish X. constructor; [|eapply IH; eassumption].
  destruct (str_eqb (ttype t) s_inline) eqn:TI; [|rfinish E1; exact Ht].
  apply bind_ok in E1 as (ch & IP & E1).
  rfinish E1. apply tok_lift_children; [exact (proj1 Ht)|]. eapply C_parse; [exact HE | | exact IP]. apply tok_lift_given; assumption.
Qed.

Lemma erase_text_fields a b : erase_text a = erase_text b -> ttype a = ttype b /\ ttag a = ttag b /\ tattrs a = tattrs b.
Proof.
  unfold erase_text. intros H.
  destruct (str_eqb (ttype a) s_text), (str_eqb (ttype b) s_text);
    apply (f_equal (fun t => (ttype t, ttag t, tattrs t))) in H; cbn in H; injection H as -> -> ->; repeat split.
Qed.

Lemma erase_map_C : forall l l', map erase_text l' = map erase_text l -> Forall C l -> Forall C l'.
Proof.
  induction l as [|x l IH]; intros [|y l'] X H; try discriminate X; [constructor|].
  cbn [map] in X. injection X as E1 E2. inversion H; subst.
  constructor; [|apply IH; assumption].
  destruct (erase_text_fields _ _ E1) as (T1 & T2 & T3). eapply C_fields; eassumption.
Qed.

Lemma erase_inline_inv t t' : erase_inline t' = erase_inline t -> tok_lift t -> tok_lift t'.
Proof.
  unfold erase_inline. intros X [Hok Hch].
  destruct (tchildren t) as [ch|] eqn:K, (tchildren t') as [ch'|] eqn:K'.
  - pose proof (f_equal (fun x => (ttype x, ttag x, tattrs x, tchildren x)) X) as E3. cbn in E3. injection E3 as T1 T2 T3 T4.
    split; [eapply A_fields; eassumption|].
    intros c Ec Ei. rewrite K' in Ec. injection Ec as <-. rewrite T1 in Ei. eapply erase_map_C; [exact T4 | apply (Hch ch eq_refl Ei)].
  - pose proof (f_equal tchildren X) as E3. cbn in E3. rewrite K' in E3. discriminate E3.
  - pose proof (f_equal tchildren X) as E3. cbn in E3. rewrite K in E3. discriminate E3.
  - subst t'. split; [exact Hok|]. intros c Ec. rewrite K in Ec. discriminate Ec.
Qed.

Lemma erase_list_inv : forall l l', map erase_inline l' = map erase_inline l -> Forall tok_lift l -> Forall tok_lift l'.
Proof.
  induction l as [|x l IH]; intros [|y l'] X H; try discriminate X; [constructor|].
  cbn [map] in X. injection X as E1 E2. inversion H; subst.
  constructor; [eapply erase_inline_inv; eassumption | apply IH; assumption].
Qed.

Lemma join_children_C l : Forall C l -> Forall C (join_children l).
Proof.
  unfold join_children. intros H. apply Forall_rev.
  assert (G : forall l acc, Forall C l -> Forall C acc -> Forall C (fold_left (fun acc y => join_push acc (join_tok y)) l acc)).
  { induction l0 as [|y l0 IH]; intros acc Hl Ha; cbn [fold_left]; [exact Ha|].
    inversion Hl as [|? ? Hy Hl0]; subst. apply IH; [exact Hl0|]. apply C_join in Hy.
    unfold join_push. destruct acc as [|p acc']; [constructor; [exact Hy | constructor]|]. inversion Ha; subst.
    destruct (str_eqb (ttype (join_tok y)) s_text && str_eqb (ttype p) s_text); [|constructor; [exact Hy | exact Ha]].
    constructor; [|assumption]. eapply C_fields; [| | |eassumption]; reflexivity. }
  apply G; [exact H | constructor].
Qed.

Lemma text_join_inv l : Forall tok_lift l -> Forall tok_lift (text_join l).
Proof.
  unfold text_join. intros H. apply Forall_map. eapply Forall_impl; [|exact H].
  intros t HT. destruct (str_eqb (ttype t) s_inline) eqn:TI; [|exact HT].
  apply tok_lift_children; [exact (proj1 HT) | apply join_children_C, tok_lift_given; assumption].
Qed.

Definition core_inv (st : cstate) : Prop := Forall tok_lift (c_tokens st) /\ E (c_env st).

Lemma core_rule_inv name st st' : core_inv st -> core_rule cfg rf cf lt name st = Ok st' -> core_inv st'.
Proof.
  unfold core_rule. intros [H HE] X.
  destruct (str_eqb name n_normalize); [rfinish X; split; assumption|].
  destruct (str_eqb name n_block).
  { destruct (c_inlineMode st).
    - rfinish X. split; [|exact HE]. cbn [c_tokens]. apply Forall_app. split; [exact H|]. constructor; [|constructor].
      apply tok_lift_children; [eapply A_fields; [| | |exact A_inline]; reflexivity | constructor].
    - apply bind_ok in X as (b & BP & X).
      rfinish X. split; [|exact (E_block _ _ _ _ BP HE)].
      cbn [c_tokens]. destruct (block_parse_kinds _ _ _ CS _ _ _ _ BP) as (seg & Tk & F). rewrite Tk.
      apply Forall_app. split; [exact H|]. eapply Forall_impl; [|exact F].
      intros t (n & _ & P). split; [exact (A_block _ _ P)|].
      destruct (P_rule_kind_ok _ _ _ P) as (ty & tag & (_ & _ & K & _) & _).
      intros ch Ec _. destruct K as [K|K]; rewrite K in Ec; [discriminate Ec | injection Ec as <-; constructor]. }
  destruct (str_eqb name n_inline).
  { apply bind_ok in X as (ts & IA & X).
    rfinish X. split; [|exact HE]. eapply inline_all_inv; eassumption. }
  destruct (str_eqb name n_linkify); [destruct (p_linkify cfg); [discriminate X | rfinish X; split; assumption]|].
  destruct (str_eqb name n_replacements).
  { rfinish X. split; [|exact HE]. eapply erase_list_inv; [apply replacements_shape | exact H]. }
  destruct (str_eqb name n_smartquotes).
  { rfinish X. split; [|exact HE]. eapply erase_list_inv; [apply smartquotes_shape | exact H]. }
  destruct (str_eqb name n_text_join); [rfinish X; split; [apply text_join_inv, H | exact HE]|].
  rfinish X. split; assumption.
Qed.

Lemma core_process_inv : forall names st st', core_inv st -> core_process cfg rf cf lt names st = Ok st' -> core_inv st'.
Proof.
  induction names as [|n rest IH]; intros st st' H X; cbn [core_process] in X; [rfinish X; exact H|].
  apply bind_ok in X as (s1 & CR & X).
  eapply IH; [eapply core_rule_inv; eassumption | exact X].
Qed.

Theorem entry_inv inl src env ts env' : E env -> entry cfg rf cf lt inl src env = Ok (ts, env') -> Forall tok_lift ts /\ E env'.
Proof.
  unfold entry. intros HE X. apply bind_ok in X as (st & CP & X). rfinish X.
  apply core_process_inv in CP; [exact CP | split; [constructor | exact HE]].
Qed.

End Lift.

Lemma tok_lift_impl (A A' C C' : token -> Prop) t :
  (A t -> A' t) -> (forall x, C x -> C' x) -> tok_lift A C t -> tok_lift A' C' t.
Proof.
  intros HA HC [H K]. split; [exact (HA H)|]. intros ch Ech TI. eapply Forall_impl; [exact HC | exact (K ch Ech TI)].
Qed.

Section Safe.
Context (cfg : pcfg) (rf cf lt : str -> str).
Context (HB : c_html (p_block cfg) = false) (HI : ic_html (p_inline cfg) = false) (CS : chains_sub (p_block cfg)).

Notation Vc := (V (p_inline cfg)).

Lemma V_fields t t' : ttype t' = ttype t -> ttag t' = ttag t -> tattrs t' = tattrs t -> Vc t -> Vc t'.
Proof. intros A B _. apply tt_V; assumption. Qed.

(* text_join turns text_special into text *)
Lemma join_tok_V t : Vc t -> Vc (join_tok t).
Proof.
  intros H. destruct (str_eqb (ttype t) s_text_special) eqn:E.
  - apply str_eqb_eq in E.
    assert (A : ttype (join_tok t) = s_text) by (destruct t; cbn in *; rewrite E; reflexivity).
    assert (B : ttag (join_tok t) = ttag t) by (destruct t; reflexivity).
    unfold V, is0 in H.
    repeat match goal with H : _ \/ _ |- _ => destruct H as [H|H] end;
      try (match goal with H : ic_html _ = true /\ _ |- _ => destruct H as [_ H] end);
      destruct H as [H1 H2]; rewrite E in H1; try discriminate H1.
    left. split; [exact A | rewrite B; exact H2].
  - assert (A : ttype (join_tok t) = ttype t) by (destruct t; cbn in *; rewrite E; reflexivity).
    assert (B : ttag (join_tok t) = ttag t) by (destruct t; reflexivity).
    eapply tt_V; [exact A | exact B | exact H].
Qed.

(* the invariant of the core chain: every token is fine for the renderer, and every token of type
   inline has children from the inline vocabulary *)
Definition tok_inv : token -> Prop := tok_lift (ok_blk all_tags) Vc.

Lemma tok_inv_top t : tok_inv t -> ok_top all_tags t.
Proof.
  intros [H C]. split; [exact H|]. intros E ch Ech. specialize (C ch Ech E).
  eapply Forall_impl; [|exact C]. intros x Hx. eapply V_ok_tok; eassumption.
Qed.

Lemma entry_tokens_ok inl src env ts env' : entry cfg rf cf lt inl src env = Ok (ts, env') -> Forall (ok_top all_tags) ts.
Proof.
  intros X. eapply Forall_impl; [exact tok_inv_top|].
  refine (proj1 (entry_inv cfg rf cf lt CS (ok_blk all_tags) Vc (fun _ => True) _ V_fields join_tok_V _ _ _ _ inl src env ts env' I X)).
  - intros t t' T1 T2 _. apply ok_blk_tt; symmetry; assumption.
  - intros s e tk r _. apply inline_parse_kinds.
  - intros n t P. exact (proj1 (P_rule_ok_tok _ _ _ HB P)).
  - right. split; [reflexivity | split; reflexivity].
  - intros; exact I.
Qed.

Theorem parse_tokens_ok src env ts env' :
  parse cfg rf cf lt src env = Ok (ts, env') -> Forall (ok_top all_tags) ts.
Proof. exact (entry_tokens_ok false src env ts env'). Qed.

Theorem parse_inline_tokens_ok src env ts env' :
  parse_inline cfg rf cf lt src env = Ok (ts, env') -> Forall (ok_top all_tags) ts.
Proof. exact (entry_tokens_ok true src env ts env'). Qed.

Theorem render_md_safe (HH : o_highlight (p_render cfg) = None) src env h env' :
  render_md cfg rf cf lt src env = Ok (h, env') ->
  exists cs, h = html_of cs /\ forallb (chunk_ok all_tags) cs = true.
Proof.
  unfold render_md. intros E.
  apply bind_ok in E as ([ts e1] & P & E).
  apply parse_tokens_ok in P.
  unfold render in E.
  destruct (render_list (p_render cfg) None ts) as [[cs ts']|?|] eqn:R; cbn [bind] in E; try discriminate E.
  rfinish E. exists cs. split; [reflexivity|]. eapply render_list_ok; eassumption.
Qed.

Theorem render_inline_md_safe (HH : o_highlight (p_render cfg) = None) src env h env' :
  render_inline_md cfg rf cf lt src env = Ok (h, env') ->
  exists cs, h = html_of cs /\ forallb (chunk_ok all_tags) cs = true.
Proof.
  unfold render_inline_md. intros E.
  apply bind_ok in E as ([ts e1] & P & E).
  apply parse_inline_tokens_ok in P.
  unfold render in E.
  destruct (render_list (p_render cfg) None ts) as [[cs ts']|?|] eqn:R; cbn [bind] in E; try discriminate E.
  rfinish E. exists cs. split; [reflexivity|]. eapply render_list_ok; eassumption.
Qed.

End Safe.

Definition ex_block : bcfg :=
  mkBCfg [nm_code; nm_fence; nm_blockquote; nm_hr; nm_list; nm_reference; nm_html_block; nm_heading; nm_lheading; nm_paragraph]
         (fun ch => if str_eqb ch nm_paragraph then [nm_fence; nm_blockquote; nm_hr; nm_list; nm_html_block; nm_heading]
                    else if str_eqb ch nm_blockquote then [nm_fence; nm_blockquote; nm_hr; nm_list; nm_html_block; nm_heading]
                    else if str_eqb ch nm_list then [nm_fence; nm_blockquote; nm_hr; nm_html_block; nm_heading]
                    else if str_eqb ch nm_reference then [nm_blockquote; nm_list; nm_html_block; nm_heading] else [])
         true 20 false false.
Definition ex_inline : icfg :=
  mkICfg [n_text; n_newline; n_escape; n_backticks; n_emphasis; n_link; n_image; n_autolink; n_html_inline; n_entity]
         [n_balance_pairs; n_emphasis; n_fragments_join] 20 false false false.
Definition ex_cfg : pcfg :=
  mkPCfg [n_normalize; n_block; n_inline; n_text_join] ex_block ex_inline false [] false (mkROpts false false [] None).
(* "# a *b*\n\n> - c <x> & [l](/u)\n" *)
Definition ex_src : str :=
  [35; 32; 97; 32; 42; 98; 42; 10; 10; 62; 32; 45; 32; 99; 32; 60; 120; 62; 32; 38; 32; 91; 108; 93; 40; 47; 117; 41; 10].

Example ex_chains_sub : chains_sub ex_block.
Proof.
  intros ch n H. unfold ex_block in *. cbn [c_term c_rules] in *.
  destruct (str_eqb ch nm_paragraph); [cbn in *; tauto|].
  destruct (str_eqb ch nm_blockquote); [cbn in *; tauto|].
  destruct (str_eqb ch nm_list); [cbn in *; tauto|].
  destruct (str_eqb ch nm_reference); [cbn in *; tauto|]. contradiction H.
Qed.

Example render_safe_applies :
  c_html (p_block ex_cfg) = false /\ ic_html (p_inline ex_cfg) = false /\ o_highlight (p_render ex_cfg) = None
  /\ exists h e, render_md ex_cfg (fun s => s) (fun s => s) (fun s => s) ex_src env0 = Ok (h, e)
                 /\ 100 < len h.
Proof.
  repeat split. eexists. eexists. split; [vm_compute; reflexivity | vm_compute; reflexivity].
Qed.
