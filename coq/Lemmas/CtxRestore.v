(* C07: no container context leaks.  Every block rule, successful or not, silent or not, every
   terminator chain, the nested tokenize at any depth and the line loop return with blkIndent and
   listIndent exactly as they found them (the line tables, lineMax, src: Lemmas/TablesRestore.v; the
   level: Lemmas/BlockWF.v).  What a top-level block leaves behind is tokens, the cursor, env, the tight
   flag and parentType - and parentType is read by one rule only, in silent mode, where the caller
   has just set it. *)
From MD Require Import Base.Py Model.StateBlock Model.Block Lemmas.BlockEff Lemmas.MapWhole.

Definition ctx (st st' : bstate) : Prop :=
  b_blkIndent st' = b_blkIndent st /\ b_listIndent st' = b_listIndent st.
Lemma ctx_refl st : ctx st st. Proof. split; reflexivity. Qed.
Lemma ctx_trans a b c : ctx a b -> ctx b c -> ctx a c.
Proof. intros [A1 A2] [B1 B2]. split; congruence. Qed.
Lemma fr_ctx st st' : fr st st' -> ctx st st'.
Proof. intros H. rewrite H. split; reflexivity. Qed.

Definition rec_x (rec : rec_t) : Prop := forall s a b s', rec s a b = Ok s' -> ctx s s'.
Lemma no_rec_x : rec_x no_rec. Proof. intros s a b s' H. discriminate H. Qed.

Section Rules.
Context (cfg : bcfg) (rf cf : str -> str).

Lemma eff_ctx (A : str -> Prop) (C : bstate -> bstate -> Prop) (HC : forall a b, C a b -> ctx a b) a b :
  eff cfg rf A C a b -> ctx a b.
Proof.
  induction 1 as [a b Cab | a | a b c _ E1 _ E2 | a n ty tag f _ _ _ | a n oty cty tag f f' b _ _ _ _ _ E
                  | a b X _ E _ _ I _ | a X label title raw m _ I _ _ | a a' b X _ _ _ E _ _ I].
  - exact (HC a b Cab).
  - apply ctx_refl.
  - exact (ctx_trans a b c E1 E2).
  - split; reflexivity.
  - exact E.
  - exact (ctx_trans a b X E I).
  - exact I.
  - exact (I E).
Qed.

Lemma rec_x_eff rec : rec_x rec -> rec_eff cfg rf any_rule ctx rec.
Proof. intros R s a b s' H. apply eff_call, (R s a b s' H). Qed.

Lemma ctx_of a b : eff cfg rf any_rule ctx a b -> ctx a b.
Proof. apply eff_ctx. intros x y E. exact E. Qed.

Lemma term_fr_eff term : term_fr term -> term_eff cfg rf any_rule ctx term.
Proof. intros T ch s a b r s' N H. exact (eff_call _ _ _ _ _ _ (fr_ctx _ _ (T ch s a b r s' N H))). Qed.

Lemma r_hr_x st sl el silent b st' : r_hr cfg st sl el silent = Ok (b, st') -> ctx st st'.
Proof. intros H. exact (ctx_of _ _ (r_hr_eff cfg rf any_rule ctx I _ _ _ _ _ _ H)). Qed.
Lemma r_code_x st sl el silent b st' : r_code cfg st sl el silent = Ok (b, st') -> ctx st st'.
Proof. intros H. exact (ctx_of _ _ (r_code_eff cfg rf any_rule ctx I _ _ _ _ _ _ H)). Qed.
Lemma r_fence_x st sl el silent b st' : r_fence cfg st sl el silent = Ok (b, st') -> ctx st st'.
Proof. intros H. exact (ctx_of _ _ (r_fence_eff cfg rf any_rule ctx I _ _ _ _ _ _ H)). Qed.
Lemma r_heading_x st sl el silent b st' : r_heading cfg st sl el silent = Ok (b, st') -> ctx st st'.
Proof. intros H. exact (ctx_of _ _ (r_heading_eff cfg rf any_rule ctx I _ _ _ _ _ _ H)). Qed.
Lemma r_html_block_x st sl el silent b st' : r_html_block cfg st sl el silent = Ok (b, st') -> ctx st st'.
Proof. intros H. exact (ctx_of _ _ (r_html_block_eff cfg rf any_rule ctx I _ _ _ _ _ _ H)). Qed.

Lemma r_paragraph_x term (T : term_fr term) st sl el silent b st' : r_paragraph term st sl el silent = Ok (b, st') -> ctx st st'.
Proof. intros H. exact (ctx_of _ _ (r_paragraph_eff cfg rf any_rule ctx I term (term_fr_eff term T) _ _ _ _ _ _ H)). Qed.
Lemma r_lheading_x term (T : term_fr term) st sl el silent b st' : r_lheading cfg term st sl el silent = Ok (b, st') -> ctx st st'.
Proof. intros H. exact (ctx_of _ _ (r_lheading_eff cfg rf any_rule ctx I term (term_fr_eff term T) _ _ _ _ _ _ H)). Qed.
Lemma r_reference_x term (T : term_fr term) st sl el silent b st' : r_reference cfg rf cf term st sl el silent = Ok (b, st') -> ctx st st'.
Proof. intros H. exact (ctx_of _ _ (r_reference_eff cfg rf cf any_rule ctx I term (term_fr_eff term T) _ _ _ _ _ _ H)). Qed.
Lemma r_table_x term (T : term_fr term) st sl el silent b st' : r_table cfg term st sl el silent = Ok (b, st') -> ctx st st'.
Proof. intros H. exact (ctx_of _ _ (r_table_eff cfg rf any_rule ctx I term (term_fr_eff term T) _ _ _ _ _ _ H)). Qed.

Lemma bq_loop_x term (T : term_fr term) : forall fuel st sv nl el lle r sv' st',
  bq_loop fuel term st sv nl el lle = Ok (r, sv', st') -> ctx st st'.
Proof. intros fuel st sv nl el lle r sv' st' H. exact (ctx_of _ _ (bq_loop_eff cfg rf any_rule ctx term (term_fr_eff term T) _ _ _ _ _ _ _ _ _ H)). Qed.
Lemma r_blockquote_x rec term (R : rec_x rec) (T : term_fr term) st sl el silent b st' :
  r_blockquote cfg rec term st sl el silent = Ok (b, st') -> ctx st st'.
Proof. intros H. exact (ctx_of _ _ (r_blockquote_eff cfg rf any_rule ctx I rec term (rec_x_eff rec R) (term_fr_eff term T) _ _ _ _ _ _ H)). Qed.

Lemma list_items_x rec term (R : rec_x rec) (T : term_fr term) : forall fuel st isOrd mc sl nl el pam start tight pee r tight' st',
  list_items cfg fuel rec term st isOrd mc sl nl el pam start tight pee = Ok (r, tight', st') -> ctx st st'.
Proof.
  intros fuel st isOrd mc sl nl el pam start tight pee r tight' st' H.
  exact (ctx_of _ _ (list_items_eff cfg rf any_rule ctx I rec term (rec_x_eff rec R) (term_fr_eff term T) _ _ _ _ _ _ _ _ _ _ _ _ _ _ H)).
Qed.
Lemma r_list_x rec term (R : rec_x rec) (T : term_fr term) st sl el silent b st' :
  r_list cfg rec term st sl el silent = Ok (b, st') -> ctx st st'.
Proof. intros H. exact (ctx_of _ _ (r_list_eff cfg rf any_rule ctx I rec term (rec_x_eff rec R) (term_fr_eff term T) _ _ _ _ _ _ H)). Qed.

Lemma apply_rule_x rec term (R : rec_x rec) (T : term_fr term) n st sl el silent b st' :
  apply_rule cfg rf cf rec term n st sl el silent = Ok (b, st') -> ctx st st'.
Proof. intros H. exact (ctx_of _ _ (apply_rule_eff cfg rf cf any_rule ctx rec term (rec_x_eff rec R) (term_fr_eff term T) n I _ _ _ _ _ _ H)). Qed.

Lemma try_rules_x rec (R : rec_x rec) : forall names st l el st',
  try_rules cfg rf cf rec names st l el = Ok st' -> ctx st st'.
Proof.
  intros names st l el st' H.
  exact (ctx_of _ _ (try_rules_eff cfg rf cf any_rule ctx (fun _ _ _ => I) rec (rec_x_eff rec R) names _ _ _ _ (fun _ _ => I) H)).
Qed.

Lemma tok_loop_x rec (R : rec_x rec) : forall fuel st line el hel st',
  tok_loop cfg rf cf fuel rec st line el hel = Ok st' -> ctx st st'.
Proof.
  intros fuel st line el hel st' H.
  exact (ctx_of _ _ (tok_loop_eff cfg rf cf any_rule ctx (fun _ _ _ => I) (fun _ _ => I) rec (rec_x_eff rec R) fuel _ _ _ _ _ H)).
Qed.

Theorem tokenize_x : forall d, rec_x (tokenize cfg rf cf d).
Proof.
  intros d s a b s' H.
  exact (ctx_of _ _ (tokenize_eff cfg rf cf any_rule ctx (fun _ _ _ => I) (fun _ _ => I) d s a b s' H)).
Qed.

Theorem rule_restores_context d n st sl el silent b st' :
  apply_rule cfg rf cf (tokenize cfg rf cf d) (terminated cfg rf cf) n st sl el silent = Ok (b, st') ->
  b_blkIndent st' = b_blkIndent st /\ b_listIndent st' = b_listIndent st.
Proof.
  intros H.
  exact (ctx_of _ _ (apply_rule_eff cfg rf cf _ _ _ _ (rec_x_eff _ (tokenize_x d)) (terminated_eff cfg rf cf _ _ (fun _ _ _ => I)) n I _ _ _ _ _ _ H)).
Qed.

End Rules.
