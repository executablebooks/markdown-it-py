(* C02, inline half, tokenizer phase: every inline rule appends a segment in which link_open / link_close
   pairs are nested like brackets around nesting-0 tokens, and leaves level / delimiter-list
   bookkeeping where it was; hence so does ParserInline.tokenize at any nesting depth, and the
   parser's output when the emphasis / strikethrough post-rules are not in the chain.  The segment
   grammar of InlineWalk, with everything but nesting and the link types forgotten. *)
From MD Require Import Base.Py Model.Token Model.Render Model.Core Model.Inline Lemmas.InlineLemmas
     Lemmas.InlineWalk.
From Coq Require Import ZifyBool.

Inductive ib : list token -> Prop :=
| ib_nil : ib []
| ib_leaf t rest : tnesting t = 0 -> ib rest -> ib (t :: rest)
| ib_link o inner c rest :
    tnesting o = 1 -> ttype o = s_link_open -> ib inner -> tnesting c = -1 -> ttype c = s_link_close -> ib rest ->
    ib (o :: inner ++ c :: rest).

Lemma ib_app a : ib a -> forall b, ib b -> ib (a ++ b).
Proof.
  induction 1 as [| t rest Hn _ IH | o inner c rest Ho To Hi _ Hc Tc _ IH]; intros b Hb.
  - exact Hb.
  - cbn [app]. apply ib_leaf; [exact Hn | apply IH; exact Hb].
  - cbn [app]. rewrite <- app_assoc. cbn [app]. apply ib_link; try assumption. apply IH; exact Hb.
Qed.

Section IKinds.
Context (cfg : icfg).

Definition IVb (b st : istate) : Prop :=
  i_level st = i_level b /\ i_prev st = i_prev b /\ i_cur st = i_cur b
  /\ exists seg, i_tokens st = i_tokens b ++ seg /\ ib seg.

Lemma IVb_trans b s s' : IVb b s -> IVb s s' -> IVb b s'.
Proof.
  intros (L & P & Cu & seg & T & I) (L' & P' & Cu' & seg' & T' & I'). unfold IVb.
  repeat split; try congruence. exists (seg ++ seg'). split; [rewrite T', T, app_assoc; reflexivity | apply ib_app; assumption].
Qed.

Section Base.
Context (bs : istate).
Definition IV (st : istate) : Prop := IVb bs st.

Lemma push_pending_iv st : IV st -> IV (push_pending st).
Proof.
  intros (L & P & Cu & seg & T & I). unfold IV, IVb, push_pending. cbn. repeat split; try assumption.
  eexists. split; [rewrite T, <- app_assoc; reflexivity|]. apply ib_app; [exact I | apply ib_leaf; [reflexivity | constructor]].
Qed.

End Base.

Section Parser2.
Context (rf cf lt : str -> str).

Lemma iseg_ib G s : iseg cfg G s -> ib s.
Proof.
  induction 1 as [| t rest Hl _ IH | o inner c rest (_ & h & title & _ & To & _ & No & _) _ II (_ & Tc & _ & Nc & _) _ IR].
  - constructor.
  - apply ib_leaf; [|exact IH]. destruct Hl as [(ty & tag & _ & _ & _ & N & _) | (_ & h & title & _ & _ & _ & N & _)]; exact N.
  - apply ib_link; assumption.
Qed.

(* the callbacks extend the state by a segment; nothing is asked of URLs here *)
Definition FK (F : ifuncs) : Prop := WF cfg (fun _ => True) F.

Lemma ifs_FK depth : FK (ifs cfg rf cf lt depth).
Proof. apply ifs_WF; [exact I | intros u _; exact I]. Qed.

(* ParserInline.tokenize, at any nesting depth, from any state: appends a nested segment *)
Theorem inline_tokenize_nested depth st st' :
  inline_tokenize cfg rf cf lt (ifs cfg rf cf lt depth) st = Ok st' ->
  i_level st' = i_level st /\ exists seg, i_tokens st' = i_tokens st ++ seg /\ ib seg.
Proof.
  intros H. apply (inline_tokenize_ext cfg rf _ I (fun _ _ => I) cf lt _ (ifs_FK depth)) in H; [|intros k r _; exact I].
  destruct H as (_ & L & _ & _ & sg & T & S). split; [exact L|]. exists sg. split; [exact T | exact (iseg_ib _ _ S)].
Qed.

(* the same as a left-to-right check with a depth counter *)
Fixpoint nested (d : Z) (ts : list token) : Prop :=
  match ts with
  | [] => d = 0
  | t :: r =>
      (tnesting t = 0 /\ nested d r)
      \/ (tnesting t = 1 /\ ttype t = s_link_open /\ nested (d + 1) r)
      \/ (tnesting t = -1 /\ ttype t = s_link_close /\ 0 < d /\ nested (d - 1) r)
  end.

Lemma ib_nested s : ib s -> forall d r, 0 <= d -> nested d r -> nested d (s ++ r).
Proof.
  induction 1 as [| t rest Hn _ IH | o inner c rest Ho To _ II Hc Tc _ IR]; intros d r Hd Hr.
  - exact Hr.
  - cbn [app nested]. left. split; [exact Hn | apply IH; assumption].
  - cbn [app nested]. right. left. split; [exact Ho|]. split; [exact To|].
    rewrite <- app_assoc. apply II; [lia|]. cbn [app nested]. right. right.
    split; [exact Hc|]. split; [exact Tc|]. split; [lia|]. replace (d + 1 - 1) with d by lia. apply IR; assumption.
Qed.

Lemma s_text_not_link : s_text <> s_link_open /\ s_text <> s_link_close.
Proof. split; discriminate. Qed.

(* fragments_join only drops text tokens and rewrites levels / contents *)
Lemma fj_nested : forall tokens d level carry, nested d tokens -> nested d (fj tokens level carry).
Proof.
  induction tokens as [|t rest IH]; intros d level carry H; [exact H|].
  cbn [fj].
  set (t1 := set_level (match carry with Some c => set_content t (c ++ tcontent t) | None => t end)
                       (if tnesting t <? 0 then level - 1 else level)).
  assert (N1 : tnesting t1 = tnesting t /\ ttype t1 = ttype t) by (unfold t1; destruct carry; split; reflexivity).
  destruct N1 as [N1 T1].
  assert (K : forall lv cr, nested d (t1 :: fj rest lv cr)).
  { intros lv cr. cbn [nested] in H |- *. rewrite N1, T1.
    destruct H as [[A B]|[(A & B & C)|(A & B & C & D)]]; [left | right; left | right; right]; repeat split; try assumption; apply IH; assumption. }
  destruct rest as [|n rest'].
  - apply K.
  - destruct (str_eqb (ttype t) s_text && str_eqb (ttype n) s_text) eqn:E; [|apply K].
    apply Bool.andb_true_iff in E. destruct E as [E _]. apply str_eqb_eq in E.
    cbn [nested] in H. destruct H as [[A B]|[(A & B & C)|(A & B & C & D)]].
    + apply IH. exact B.
    + rewrite E in B. discriminate B.
    + rewrite E in B. discriminate B.
Qed.

Definition no_pair_rules2 : Prop :=
  forall n, In n (ic_rules2 cfg) -> str_eqb n n_strikethrough = false /\ str_eqb n n_emphasis = false.

Lemma on_all_delims_tokens (f : istate -> nat -> res istate) (Hf : forall s id s', f s id = Ok s' -> i_tokens s' = i_tokens s) :
  forall st st', on_all_delims f st = Ok st' -> i_tokens st' = i_tokens st.
Proof.
  intros st st'. apply (on_all_delims_inv (fun s => i_tokens s = i_tokens st) f); [|reflexivity].
  intros s id s' HI E. rewrite (Hf s id s' E). exact HI.
Qed.

Lemma run_rules2_nested : forall names st st' d,
  (forall n, In n names -> str_eqb n n_strikethrough = false /\ str_eqb n n_emphasis = false) ->
  nested d (i_tokens st) -> run_rules2 names st = Ok st' -> nested d (i_tokens st').
Proof.
  induction names as [|n rest IH]; intros st st' d HN HT H; cbn [run_rules2] in H; [rfinish H; exact HT|].
  apply bind_ok in H as (s1 & E & H).
  eapply IH; [intros m Hm; apply HN; right; exact Hm | | exact H].
  destruct (HN n (or_introl eq_refl)) as [N1 N2]. unfold iapply2 in E.
  destruct (str_eqb n n_balance_pairs).
  { unfold r2_balance_pairs in E.
    assert (TE : i_tokens s1 = i_tokens st).
    { eapply on_all_delims_tokens; [|exact E]. intros s id s' X. cbv beta in X.
      destruct (process_delimiters (nth id (i_dstore s) [])); cbn [bind] in X; try discriminate X. injection X as <-. reflexivity. }
    rewrite TE. exact HT. }
  rewrite N1, N2 in E.
  destruct (str_eqb n n_fragments_join); [unfold r2_fragments_join in E; rfinish E; cbn; apply fj_nested; exact HT|].
  rfinish E. exact HT.
Qed.

(* ParserInline.parse without the emphasis / strikethrough post-rules: the whole output is nested -
   depth never negative, zero at the end, every closing token a link_close matching a link_open *)
Theorem inline_parse_nested src env r :
  no_pair_rules2 -> inline_parse cfg rf cf lt src env [] = Ok r -> nested 0 r.
Proof.
  unfold inline_parse, inline_parse_with. intros NP H.
  apply bind_ok in H as (st1 & TK & H).
  apply inline_tokenize_nested in TK. destruct TK as (_ & seg & T & I). cbn in T.
  apply bind_ok in H as (st2 & R2 & H).
  injection H as <-. eapply run_rules2_nested; [exact NP | | exact R2].
  rewrite T. rewrite <- (app_nil_r seg). apply ib_nested; [exact I | lia | reflexivity].
Qed.

End Parser2.

End IKinds.
