(* C16: labels match with internal whitespace collapsed.  The regular expression  \s+  that
   normalizeReference substitutes by one space, run by the backtracking matcher of Base/Regex.v,
   computes a simple function: every maximal run of white space becomes one space.  Hence two
   spellings of a label that differ only in how a run of white space is written normalise alike. *)
From MD Require Import Base.Py Base.Str Base.Regex Model.Utils Gen.Regexes Lemmas.RegexSub.

(* \s as the translator expands it (the 29 code points of Gen.Tables.py_space, as ranges).  ws_re_is pins the generated
   pattern to this spelling: it is the lemma that breaks when the pattern is regenerated differently. *)
Definition ws_items : list cls_item :=
  [CRange 9 13; CRange 28 32; CChar 133; CChar 160; CChar 5760; CRange 8192 8202; CRange 8232 8233; CChar 8239; CChar 8287; CChar 12288].
Definition wsb (c : Z) : bool := in_cls c ws_items.
Definition ws_re : re := RRep 1%nat None true (RIn false ws_items).
Lemma ws_re_is : re_utils_inline0 = ws_re. Proof. reflexivity. Qed.

Fixpoint collapse_aux (inws : bool) (l : str) : str :=
  match l with
  | [] => []
  | c :: r => if wsb c then (if inws then collapse_aux true r else 32 :: collapse_aux true r) else c :: collapse_aux false r
  end.
Definition collapse (s : str) : str := collapse_aux false s.

Definition run_ends (rest : str) : bool := match rest with [] => true | c :: _ => negb (wsb c) end.

Lemma run_ends_cons c r : run_ends (c :: r) = true -> wsb c = false.
Proof. apply Bool.negb_true_iff. Qed.

(* the state after the matcher has eaten ws (RegexLit.eatp, later in the import order, is the same function) *)
Definition eat (st : mstate) (ws rest : list Z) : mstate :=
  mkM (rev ws ++ m_before st) rest (m_pos st + Z.of_nat (length ws)) (m_groups st).

(* the repeat loop of the matcher, for this expression and the final continuation of match_at *)
Fixpoint ws_loop (fuel count : nat) (st : mstate) : option mstate :=
  match fuel with
  | O => None
  | S fuel' =>
      match mt (RIn false ws_items) st (fun st' =>
              if (m_pos st' =? m_pos st) && Nat.leb 1 (S count) then Some st' else ws_loop fuel' (S count) st') with
      | Some x => Some x
      | None => if Nat.leb 1 count then Some st else None
      end
  end.

(* the + 1 is the lower bound mn = 1 of the repeat, which the matcher adds to its fuel *)
Lemma match_at_ws st : match_at ws_re st = ws_loop (S (length (m_after st)) + 1) 0 st.
Proof. reflexivity. Qed.

Lemma ws_loop_run : forall ws fuel count st rest,
  m_after st = ws ++ rest -> forallb wsb ws = true ->
  run_ends rest = true ->
  (length ws < fuel)%nat -> (1 <= count + length ws)%nat ->
  ws_loop fuel count st = Some (eat st ws rest).
Proof.
  induction ws as [|c ws IH]; intros fuel count st rest HA HW HR HF HC.
  - destruct fuel as [|f]; [lia|]. cbn [ws_loop mt]. cbn [app] in HA.
    assert (NONE : (match advance st with
                    | Some (c, st') => if xorb false (in_cls c ws_items) then
                         (if (m_pos st' =? m_pos st) && Nat.leb 1 (S count) then Some st' else ws_loop f (S count) st') else None
                    | None => None end) = None).
    { unfold advance. rewrite HA. destruct rest as [|r0 rest']; [reflexivity|]. cbn [xorb]. fold (wsb r0).
      rewrite (run_ends_cons _ _ HR). reflexivity. }
    rewrite NONE. cbn in HC. assert (E : Nat.leb 1 count = true) by (apply Nat.leb_le; lia). rewrite E.
    f_equal. unfold eat. cbn [rev app length]. destruct st as [b a p g]. cbn in *. subst a. f_equal. lia.
  - destruct fuel as [|f]; [cbn in HF; lia|]. cbn [ws_loop mt].
    cbn [forallb] in HW. apply Bool.andb_true_iff in HW. destruct HW as [Hc HW].
    unfold advance at 1. rewrite HA. cbn [app]. cbn [xorb]. fold (wsb c). rewrite Hc.
    set (st1 := mkM (c :: m_before st) (ws ++ rest) (m_pos st + 1) (m_groups st)).
    assert (PN : (m_pos st1 =? m_pos st) = false) by (unfold st1; cbn [m_pos]; apply Z.eqb_neq; lia).
    rewrite PN. cbn [andb].
    rewrite (IH f (S count) st1 rest eq_refl HW HR ltac:(cbn in HF; lia) ltac:(lia)).
    f_equal. unfold eat, st1. cbn [m_before m_pos m_groups rev length]. rewrite <- app_assoc. cbn [app]. f_equal. lia.
Qed.

Lemma ws_loop_none fuel st : run_ends (m_after st) = true -> ws_loop fuel 0 st = None.
Proof.
  intros H. destruct fuel as [|f]; [reflexivity|]. cbn [ws_loop mt]. unfold advance.
  destruct (m_after st) as [|c r]; [reflexivity|]. cbn [xorb]. fold (wsb c). rewrite (run_ends_cons _ _ H). reflexivity.
Qed.

Fixpoint span_ws (l : str) : str * str :=
  match l with
  | [] => ([], [])
  | c :: r => if wsb c then (c :: fst (span_ws r), snd (span_ws r)) else ([], l)
  end.
Lemma span_ws_spec l : l = fst (span_ws l) ++ snd (span_ws l) /\ forallb wsb (fst (span_ws l)) = true
  /\ run_ends (snd (span_ws l)) = true.
Proof.
  induction l as [|c r (A & B & C)]; [repeat split|]. cbn [span_ws]. destruct (wsb c) eqn:E; cbn [fst snd].
  - split; [cbn [app]; f_equal; exact A|]. split; [cbn [forallb]; rewrite E, B; reflexivity | exact C].
  - split; [reflexivity|]. split; [reflexivity|]. cbn [run_ends]. rewrite E. reflexivity.
Qed.
Lemma span_ws_len l : (length (snd (span_ws l)) <= length l)%nat.
Proof. destruct (span_ws_spec l) as (A & _ & _). rewrite A at 2. rewrite app_length. lia. Qed.

Lemma collapse_true_head rest : run_ends rest = true ->
  collapse_aux true rest = collapse_aux false rest.
Proof. destruct rest as [|c r]; [reflexivity|]. intros H. cbn [collapse_aux]. rewrite (run_ends_cons _ _ H). reflexivity. Qed.
Lemma collapse_true_run : forall ws rest, forallb wsb ws = true -> collapse_aux true (ws ++ rest) = collapse_aux true rest.
Proof.
  induction ws as [|c ws IH]; intros rest H; [reflexivity|]. cbn [forallb] in H. apply Bool.andb_true_iff in H. destruct H as [Hc H].
  cbn [app collapse_aux]. rewrite Hc. apply IH, H.
Qed.
Lemma collapse_run c ws rest : wsb c = true -> forallb wsb ws = true ->
  run_ends rest = true ->
  collapse_aux false ((c :: ws) ++ rest) = 32 :: collapse_aux false rest.
Proof.
  intros Hc HW HR. cbn [app collapse_aux]. rewrite Hc. f_equal. rewrite collapse_true_run by exact HW. apply collapse_true_head, HR.
Qed.

Theorem collapse_ws_is_collapse s : collapse_ws s = collapse s.
Proof.
  unfold collapse_ws, collapse. rewrite ws_re_is. apply sub_pass. intros b a p. rewrite match_at_ws.
  destruct a as [|c r]; [rewrite ws_loop_none by reflexivity; reflexivity|]. destruct (wsb c) eqn:Hc.
  - destruct (span_ws_spec r) as (A & B & C). set (ws := fst (span_ws r)) in *. set (rest := snd (span_ws r)) in *.
    rewrite (ws_loop_run (c :: ws) _ 0 _ rest).
    + cbn [eat m_after m_pos length]. pose proof (span_ws_len r) as L. fold rest in L. split; [lia|].
      rewrite A. apply (collapse_run c ws rest Hc B C).
    + cbn [m_after app]. f_equal. exact A.
    + cbn [forallb]. rewrite Hc, B. reflexivity.
    + exact C.
    + cbn [m_after length]. rewrite A. rewrite app_length. lia.
    + cbn [length]. lia.
  - rewrite ws_loop_none by (cbn [m_after run_ends]; rewrite Hc; reflexivity). cbn [collapse_aux]. rewrite Hc. reflexivity.
Qed.

Theorem collapse_respelling a w1 w2 b : w1 <> [] -> w2 <> [] -> forallb wsb w1 = true -> forallb wsb w2 = true ->
  collapse_ws (a ++ w1 ++ b) = collapse_ws (a ++ w2 ++ b).
Proof.
  intros N1 N2 H1 H2. rewrite !collapse_ws_is_collapse. unfold collapse.
  assert (G : forall i w, w <> [] -> forallb wsb w = true -> collapse_aux i (w ++ b) = (if i then [] else [32]) ++ collapse_aux true b).
  { intros i w Nw Hw. destruct w as [|c w]; [contradiction Nw; reflexivity|]. cbn [forallb] in Hw. apply Bool.andb_true_iff in Hw. destruct Hw as [Hc Hw].
    cbn [app collapse_aux]. rewrite Hc. rewrite collapse_true_run by exact Hw. destruct i; reflexivity. }
  generalize false. induction a as [|c a IH]; intros i; cbn [app].
  - rewrite (G i w1 N1 H1), (G i w2 N2 H2). reflexivity.
  - cbn [collapse_aux]. destruct (wsb c); [destruct i|]; rewrite ?IH; reflexivity.
Qed.

Lemma strip_fixed p c m d : p c = false -> p d = false -> strip_by p (c :: m ++ [d]) = c :: m ++ [d].
Proof.
  intros Hc Hd. unfold strip_by, rstrip_by. cbn [lstrip_by]. rewrite Hc.
  change (c :: m ++ [d]) with ((c :: m) ++ [d]). rewrite rev_app_distr. cbn [rev app lstrip_by]. rewrite Hd.
  cbn [rev]. rewrite rev_app_distr, rev_involutive. reflexivity.
Qed.

Theorem normalize_reference_respelling casefold c a w1 w2 b d :
  is_py_space c = false -> is_py_space d = false ->
  w1 <> [] -> w2 <> [] -> forallb wsb w1 = true -> forallb wsb w2 = true ->
  normalize_reference casefold (c :: a ++ w1 ++ b ++ [d]) = normalize_reference casefold (c :: a ++ w2 ++ b ++ [d]).
Proof.
  intros Hc Hd N1 N2 H1 H2. unfold normalize_reference, py_strip. f_equal.
  replace (c :: a ++ w1 ++ b ++ [d]) with (c :: (a ++ w1 ++ b) ++ [d]) by (rewrite <- !app_assoc; reflexivity).
  replace (c :: a ++ w2 ++ b ++ [d]) with (c :: (a ++ w2 ++ b) ++ [d]) by (rewrite <- !app_assoc; reflexivity).
  rewrite !strip_fixed by assumption.
  rewrite <- !app_assoc.
  apply (collapse_respelling (c :: a) w1 w2 (b ++ [d]) N1 N2 H1 H2).
Qed.

Lemma lstrip_app p : forall x y,
  lstrip_by p (x ++ y) = if forallb p x then lstrip_by p y else lstrip_by p x ++ y.
Proof.
  induction x as [|c x IH]; intros y; [reflexivity|]. cbn [app lstrip_by forallb].
  destruct (p c); [apply IH | reflexivity].
Qed.

Lemma lstrip_all p x : forallb p x = true -> lstrip_by p x = [].
Proof. intros H. rewrite <- (app_nil_r x), lstrip_app, H. reflexivity. Qed.

Lemma strip_outer p l s r : forallb p l = true -> forallb p r = true -> strip_by p (l ++ s ++ r) = strip_by p s.
Proof.
  intros Hl Hr. unfold strip_by, rstrip_by. rewrite lstrip_app, Hl, lstrip_app.
  assert (R : forallb p (rev r) = true) by (rewrite forallb_forall in *; intros x Hx; apply Hr, in_rev, Hx).
  destruct (forallb p s) eqn:A.
  - rewrite (lstrip_all p r Hr), (lstrip_all p s A). reflexivity.
  - rewrite rev_app_distr, lstrip_app, R. reflexivity.
Qed.

Theorem normalize_reference_outer casefold l s r :
  forallb is_py_space l = true -> forallb is_py_space r = true ->
  normalize_reference casefold (l ++ s ++ r) = normalize_reference casefold s.
Proof.
  intros Hl Hr. unfold normalize_reference, py_strip. rewrite (strip_outer _ l s r Hl Hr). reflexivity.
Qed.
