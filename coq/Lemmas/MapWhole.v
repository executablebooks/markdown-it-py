(* C03, whole block parser: every token that ParserBlock.parse appends has no map or a map [b, e) with
   0 <= b < e <= lineMax, every successful rule advances the line cursor (so the line loop makes
   progress), container maps are non-empty - for every source, env and every configuration whose
   chain contains the paragraph rule and whose terminator chains hold only silent-capable rules
   (true of every Ruler-compiled configuration of the generated rule table). *)
From RecordUpdate Require Import RecordUpdate.
From MD Require Import Base.Py Base.Str Model.Token Model.Utils Model.StateBlock Model.Block Lemmas.Phases
     Lemmas.StrLemmas Lemmas.BlockLemmas Lemmas.BlockEff Lemmas.MapLemmas Lemmas.LfCount Lemmas.ScanLemmas.
From Coq Require Import ZifyBool.

(* a failing or silent rule returns the state it was given, except that lheading
   may leave parentType changed *)
Definition fr (st st' : bstate) : Prop := st' = st_parent st (b_parentType st').

Lemma fr_refl st : fr st st.
Proof. unfold fr. destruct st; reflexivity. Qed.
Lemma fr_parent st p : fr st (st_parent st p).
Proof. unfold fr. destruct st; reflexivity. Qed.
Lemma fr_trans a b c : fr a b -> fr b c -> fr a c.
Proof. unfold fr. generalize (b_parentType b) (b_parentType c). intros p q -> ->. destruct a; reflexivity. Qed.
Lemma fr_parent_r st st' p : fr st st' -> fr st (st_parent st' p).
Proof. intros H. eapply fr_trans; [exact H | apply fr_parent]. Qed.
Lemma fr_parent_l st st' p : fr st st' -> fr (st_parent st p) st'.
Proof. unfold fr. intros H. rewrite H at 1. destruct st; reflexivity. Qed.

Lemma fr_tokens st st' : fr st st' -> b_tokens st' = b_tokens st.
Proof. intros H. rewrite H. reflexivity. Qed.
Lemma fr_lineMax st st' : fr st st' -> b_lineMax st' = b_lineMax st.
Proof. intros H. rewrite H. reflexivity. Qed.
Lemma fr_line st st' : fr st st' -> b_line st' = b_line st.
Proof. intros H. rewrite H. reflexivity. Qed.
Lemma fr_sCount st st' : fr st st' -> b_sCount st' = b_sCount st.
Proof. intros H. rewrite H. reflexivity. Qed.
Lemma fr_blkIndent st st' : fr st st' -> b_blkIndent st' = b_blkIndent st.
Proof. intros H. rewrite H. reflexivity. Qed.

Definition gm (lo hi : Z) (st st' : bstate) : Prop :=
  exists seg, b_tokens st' = b_tokens st ++ seg /\ Forall (map_in lo hi) seg.

Lemma gm_nil lo hi st st' : b_tokens st' = b_tokens st -> gm lo hi st st'.
Proof. apply appends_nil. Qed.
Lemma gm_refl lo hi st : gm lo hi st st.
Proof. apply gm_nil. reflexivity. Qed.

Lemma map_in_weaken a b a' b' t : map_in a b t -> a' <= a -> b <= b' -> map_in a' b' t.
Proof. unfold map_in. destruct (tmap t) as [[x y]|]; [lia | trivial]. Qed.

Lemma Forall_map_in_weaken a b a' b' l : Forall (map_in a b) l -> a' <= a -> b <= b' -> Forall (map_in a' b') l.
Proof. intros F H1 H2. eapply Forall_impl; [|exact F]. intros t Ht. exact (map_in_weaken _ _ _ _ _ Ht H1 H2). Qed.

Lemma gm_trans lo hi a b c : gm lo hi a b -> gm lo hi b c -> gm lo hi a c.
Proof. apply appends_trans. Qed.

Lemma gm_same_tokens_l lo hi a a' b : gm lo hi a b -> b_tokens a' = b_tokens a -> gm lo hi a' b.
Proof. intros (s & E & F) H. exists s. split; [congruence | exact F]. Qed.

Lemma map_in_container a b op seg cl :
  tmap op = Some (a, b) -> a < b -> Forall (map_in a b) seg -> tmap cl = None -> Forall (map_in a b) (op :: seg ++ [cl]).
Proof.
  intros MO L F MC. constructor; [unfold map_in; rewrite MO; lia|]. apply Forall_app. split; [exact F|].
  constructor; [unfold map_in; rewrite MC; exact I | constructor].
Qed.

Lemma gm_container a b st st' op seg cl :
  b_tokens st' = b_tokens st ++ op :: seg ++ [cl] -> tmap op = Some (a, b) -> a < b -> Forall (map_in a b) seg -> tmap cl = None ->
  gm a b st st'.
Proof. intros E MO L F MC. exists (op :: seg ++ [cl]). split; [exact E | exact (map_in_container _ _ _ _ _ MO L F MC)]. Qed.

Lemma close_container st s op seg ty tag f a b :
  b_tokens s = b_tokens st ++ op :: seg ->
  exists cl, set_map_at (b_tokens (bpush s ty tag (-1) f)) (length (b_tokens st)) (fun _ => Some (a, b))
             = b_tokens st ++ set_map op (Some (a, b)) :: seg ++ [cl] /\ ((forall t, tmap (f t) = tmap t) -> tmap cl = None).
Proof.
  intros E. eexists. split.
  - rewrite bpush_tokens, E, <- app_assoc. cbn [app]. unfold set_map_at. rewrite update_nth_app. reflexivity.
  - intros F. rewrite F. reflexivity.
Qed.

(* the table invariant: line starts and indents are non-negative and no line feed lies between
   a line's start mark and its end mark *)
Definition TIp (src : str) (bM eM tS : list Z) : Prop :=
  forall l b e t, 0 <= l -> tb bM l = Ok b -> tb eM l = Ok e -> tb tS l = Ok t ->
    0 <= b /\ 0 <= t /\ 0 <= e /\ forall p, b <= p < e -> py_idx src p <> Ok 10.
Definition TI (st : bstate) : Prop := TIp (b_src st) (b_bMarks st) (b_eMarks st) (b_tShift st).

Lemma fr_TI st st' : fr st st' -> TI st -> TI st'.
Proof. intros H. rewrite H. exact (fun x => x). Qed.

Definition pre (st : bstate) (sl el : Z) : Prop := 0 <= sl /\ sl < el /\ el <= b_lineMax st /\ b_line st = sl /\ TI st.

Definition se (st st' : bstate) : Prop := b_src st' = b_src st /\ b_eMarks st' = b_eMarks st.
Lemma fr_se st st' : fr st st' -> se st st'.
Proof. intros H. rewrite H. split; reflexivity. Qed.
Lemma se_refl st : se st st. Proof. split; reflexivity. Qed.
Lemma se_trans a b c : se a b -> se b c -> se a c.
Proof. unfold se. intros [A1 A2] [B1 B2]. split; congruence. Qed.

Definition step_ok (st : bstate) (sl : Z) (st' : bstate) : Prop :=
  b_lineMax st' = b_lineMax st /\ sl < b_line st' <= b_lineMax st /\ gm sl (b_line st') st st' /\ TI st' /\ se st st'.

Definition rule_c (st : bstate) (sl el : Z) (silent b : bool) (st' : bstate) : Prop :=
  if b && negb silent then pre st sl el -> step_ok st sl st' else fr st st'.

Lemma rule_c_fail st sl el silent st' : fr st st' -> rule_c st sl el silent false st'.
Proof. intros H. unfold rule_c. exact H. Qed.
Lemma rule_c_silent st sl el b st' : fr st st' -> rule_c st sl el true b st'.
Proof. intros H. unfold rule_c. rewrite Bool.andb_false_r. exact H. Qed.

Lemma gm_push1 lo hi st st0 ty tag n f :
  b_tokens st0 = b_tokens st -> map_in lo hi (f (set_level (set_block (new_token ty tag n) true) (if n <? 0 then b_level st0 - 1 else b_level st0))) ->
  gm lo hi st (bpush st0 ty tag n f).
Proof.
  intros E M. eexists. split; [rewrite bpush_tokens, E; reflexivity|]. constructor; [exact M | constructor].
Qed.

Lemma gl_scan_ge : forall fuel src first last b li indent ts bs f' li',
  gl_scan fuel src first last b li indent ts bs = Ok (f', li') -> first <= f'.
Proof.
  induction fuel as [|f IH]; intros src first last b li indent ts bs f' li' H; cbn [gl_scan] in H; [rfinish H; lia|].
  destruct ((first <? last) && (li <? indent)); [|rfinish H; lia].
  rstep H. rstep H; [apply IH in H; lia|]. rstep H; [apply IH in H; lia | rfinish H; lia].
Qed.

Lemma get_lines_loop_lf st (HT : TI st) : forall fuel line endl indent keep content,
  get_lines_loop fuel st line endl indent keep = Ok content -> 0 <= line ->
  c10 content <= Z.max 0 (endl - line - (if keep then 0 else 1)).
Proof.
  induction fuel as [|f IH]; intros line endl indent keep content H Hl; cbn [get_lines_loop] in H; [rfinish H; cbn; lia|].
  destruct (negb (line <? endl)) eqn:E; [rfinish H; cbn; lia|].
  rbind H as b eqn:Eb.
  rbind H as e eqn:Ee.
  rbind H as ts eqn:Et.
  rbind H as bs eqn:Ebs.
  rbind H as [first li] eqn:GS.
  rbind H as rest eqn:GR.
  rfinish H. apply gl_scan_ge in GS. apply IH in GR; [|lia].
  destruct (HT line b e ts Hl Eb Ee Et) as (B0 & T0 & E0 & Free).
  destruct (c10_slice_free (b_src st) first e ltac:(lia) E0 ltac:(intros p Hp; apply Free; lia)) as [F0 F1].
  rewrite !c10_app.
  assert (R0 : c10 (rep 32 (li - indent)) = 0) by apply c10_rep32.
  assert (R1 : c10 (@nil Z) = 0) by reflexivity.
  destruct (indent <? li); [rewrite R0 | rewrite R1].
  all: destruct ((line + 1 <? endl) || keep) eqn:K.
  all: try (assert (keep = false) by (destruct keep; [rewrite Bool.orb_true_r in K; discriminate K | reflexivity]); subst keep; lia).
  all: destruct keep; [lia|]; assert (line + 1 < endl) by lia; lia.
Qed.

Lemma get_lines_lf st (HT : TI st) a b indent keep content :
  get_lines st a b indent keep = Ok content -> 0 <= a ->
  c10 content <= Z.max 0 (b - a - (if keep then 0 else 1)).
Proof.
  unfold get_lines. intros H Ha. destruct (b <=? a); [rfinish H; cbn; lia|].
  eapply get_lines_loop_lf; eassumption.
Qed.

(* the body of NoRaise.tabs_eq, under which name C01 and C07 state it: the two convert *)
Definition stb (st st' : bstate) : Prop :=
  b_src st' = b_src st /\ b_bMarks st' = b_bMarks st /\ b_eMarks st' = b_eMarks st /\ b_tShift st' = b_tShift st
  /\ b_sCount st' = b_sCount st /\ b_bsCount st' = b_bsCount st /\ b_lineMax st' = b_lineMax st.
Lemma stb_refl st : stb st st. Proof. repeat split. Qed.
Lemma stb_trans a b c : stb a b -> stb b c -> stb a c.
Proof. unfold stb. intros (A1 & A2 & A3 & A4 & A5 & A6 & A7) (B1 & B2 & B3 & B4 & B5 & B6 & B7). repeat split; congruence. Qed.
Lemma fr_stb st st' : fr st st' -> stb st st'.
Proof. intros H. rewrite H. repeat split. Qed.
Lemma is_empty_stb st st' l : stb st st' -> is_empty st' l = is_empty st l.
Proof. intros (A1 & A2 & A3 & A4 & _). unfold is_empty, line_start. rewrite A2, A3, A4. reflexivity. Qed.
Lemma stb_TI st st' : stb st st' -> TI st -> TI st'.
Proof. unfold stb, TI. intros (A1 & A2 & A3 & A4 & _) H. rewrite A1, A2, A3, A4. exact H. Qed.
Lemma stb_bpush st ty tag n f : stb st (bpush st ty tag n f).
Proof. repeat split. Qed.

Lemma gm_patch lo hi (st st' : bstate) ph rest a b :
  b_tokens st' = b_tokens st ++ ph :: rest -> Forall (map_in lo hi) rest -> lo <= a -> a < b -> b <= hi ->
  exists seg, set_map_at (b_tokens st') (length (b_tokens st)) (fun _ => Some (a, b)) = b_tokens st ++ seg
              /\ Forall (map_in lo hi) seg.
Proof.
  intros E F H1 H2 H3. rewrite E. unfold set_map_at. rewrite update_nth_app.
  eexists. split; [reflexivity|]. constructor; [|exact F]. unfold map_in. cbn. lia.
Qed.

Lemma nth_error_set {A} (v : A) : forall n l k, (n < length l)%nat ->
  nth_error (firstn n l ++ v :: skipn (S n) l) k = if Nat.eqb k n then Some v else nth_error l k.
Proof.
  induction n as [|n IH]; intros [|x l] k L; try (cbn in L; lia); (destruct k as [|k]; [reflexivity|]); [reflexivity|].
  apply (IH l k). cbn in L. lia.
Qed.

Lemma tb_nonneg l i : 0 <= i -> tb l i = match nth_error l (Z.to_nat i) with Some v => Ok v | None => Raise IndexError end.
Proof. intros H. unfold tb. cbv zeta. assert (E : (i <? 0) = false) by lia. rewrite !E. reflexivity. Qed.

Lemma tb_set_spec l i v l' : tb_set l i v = Ok l' -> 0 <= i ->
  tb l' i = Ok v /\ (forall j, 0 <= j -> j <> i -> tb l' j = tb l j) /\ len l' = len l.
Proof.
  unfold tb_set. cbv zeta. intros H Hi. assert (E : (i <? 0) = false) by lia. rewrite !E in H.
  destruct (len l <=? i) eqn:X; cbn [orb] in H; [discriminate H|]. injection H as <-.
  change (match l with [] => [] | _ :: l0 => skipn (Z.to_nat i) l0 end) with (skipn (S (Z.to_nat i)) l).
  assert (Li : (Z.to_nat i < length l)%nat) by (unfold len in X; lia).
  split; [|split].
  - rewrite tb_nonneg, nth_error_set, Nat.eqb_refl by lia. reflexivity.
  - intros j Hj Nj. rewrite !tb_nonneg, nth_error_set by lia. assert (N : Nat.eqb (Z.to_nat j) (Z.to_nat i) = false) by (apply Nat.eqb_neq; lia).
    rewrite N. reflexivity.
  - unfold len. rewrite app_length, firstn_length. cbn [length]. rewrite skipn_length. lia.
Qed.

Lemma tb_set_tb l i v l' : tb_set l i v = Ok l' -> 0 <= i -> exists v0, tb l i = Ok v0.
Proof.
  unfold tb_set. cbv zeta. intros H Hi. assert (E : (i <? 0) = false) by lia. rewrite !E in H.
  destruct (len l <=? i) eqn:X; [discriminate H|]. apply tb_in_range. lia.
Qed.

Lemma tb_ext (l l' : list Z) : len l = len l' -> (forall j, 0 <= j < len l -> tb l j = tb l' j) -> l = l'.
Proof.
  revert l'. induction l as [|x l IH]; intros [|y l'] HL H; try reflexivity; try (unfold len in HL; cbn in HL; lia).
  assert (H0 := H 0 ltac:(rewrite len_cons; pose proof (len_nonneg l); lia)). rewrite !tb_nonneg in H0 by lia. cbn in H0. injection H0 as ->.
  f_equal. apply IH; [rewrite !len_cons in HL; lia|]. intros j Hj.
  specialize (H (j + 1) ltac:(rewrite len_cons; lia)). rewrite !tb_nonneg in * by lia.
  replace (Z.to_nat (j + 1)) with (S (Z.to_nat j)) in H by lia. exact H.
Qed.

Definition upd1 (T T' : list Z) (i : Z) : Prop := len T' = len T /\ forall j, 0 <= j -> j <> i -> tb T' j = tb T j.
Lemma upd1_refl T i : upd1 T T i.
Proof. split; reflexivity. Qed.
Lemma upd1_set T i v T' : tb_set T i v = Ok T' -> 0 <= i -> upd1 T T' i /\ tb T' i = Ok v.
Proof. intros H Hi. destruct (tb_set_spec _ _ _ _ H Hi) as (V & O & L). split; [split|]; assumption. Qed.

(* what the table-rewriting helpers (apply_bq, restore_tables, the quote's line loop) leave alone of what the map
   contract reads: tokens, cursor, source, end marks, blkIndent *)
Definition k5 (st st' : bstate) : Prop :=
  b_tokens st' = b_tokens st /\ b_line st' = b_line st /\ b_src st' = b_src st /\ b_eMarks st' = b_eMarks st
  /\ b_blkIndent st' = b_blkIndent st.
Lemma k5_refl st : k5 st st. Proof. repeat split. Qed.
Lemma k5_trans a b c : k5 a b -> k5 b c -> k5 a c.
Proof. unfold k5. intros (A1 & A2 & A3 & A4 & A5) (B1 & B2 & B3 & B4 & B5). repeat split; congruence. Qed.
Lemma fr_k5 st st' : fr st st' -> k5 st st'.
Proof. intros H. rewrite H. repeat split. Qed.

(* S holds the entries T0 has on [lo, hi) *)
Definition holds (S T0 : list Z) (lo hi : Z) : Prop := len S = hi - lo /\ forall i, 0 <= i < hi - lo -> tb S i = tb T0 (lo + i).
(* T differs from T0 on [lo, hi) only *)
Definition same_but (T T0 : list Z) (lo hi : Z) : Prop := len T = len T0 /\ forall j, 0 <= j -> j < lo \/ hi <= j -> tb T j = tb T0 j.
Definition sv_tab (T T0 S : list Z) (lo hi : Z) : Prop := same_but T T0 lo hi /\ holds S T0 lo hi.

Lemma sv_tab_init T lo : sv_tab T T [] lo lo.
Proof. split; [split; reflexivity|]. split; [unfold len; cbn; lia|]. intros i Hi. lia. Qed.

Lemma sv_tab_step T T0 S lo hi T' x : sv_tab T T0 S lo hi -> 0 <= lo <= hi -> tb T hi = Ok x -> upd1 T T' hi ->
  sv_tab T' T0 (S ++ [x]) lo (hi + 1).
Proof.
  intros ((L & OO) & (LS & V)) Hh Ex [LT OT]. pose proof (len_nonneg S).
  split; [split; [lia|]; intros j Hj Hr; rewrite OT by lia; apply OO; lia|].
  split; [rewrite len_app; unfold len at 2; cbn; lia|]. intros i Hi.
  destruct (Z.eq_dec i (hi - lo)) as [->|Ni].
  - replace (lo + (hi - lo)) with hi by lia. rewrite tb_nonneg by lia. rewrite nth_error_app2 by (unfold len in LS; lia).
    replace (Z.to_nat (hi - lo) - length S)%nat with 0%nat by (unfold len in LS; lia). cbn. rewrite <- Ex. apply OO; lia.
  - rewrite <- V by lia. rewrite !tb_nonneg by lia. rewrite nth_error_app1 by (unfold len in LS; lia). reflexivity.
Qed.

(* T' is T with the entries of S written from index lo on *)
Definition patched (T T' : list Z) (lo : Z) (S : list Z) : Prop :=
  len T' = len T /\ (forall j, 0 <= j -> j < lo \/ lo + len S <= j -> tb T' j = tb T j)
  /\ (forall i, 0 <= i < len S -> tb T' (lo + i) = tb S i).

Lemma patched_nil T lo : patched T T lo [].
Proof. split; [reflexivity|]. split; [reflexivity|]. intros i Hi. unfold len in Hi. cbn in Hi. lia. Qed.

Lemma patched_cons T T1 T' lo x S : tb_set T lo x = Ok T1 -> 0 <= lo -> patched T1 T' (lo + 1) S -> patched T T' lo (x :: S).
Proof.
  intros E Hl (L2 & O2 & V2). destruct (tb_set_spec _ _ _ _ E Hl) as (V1 & O1 & L1). unfold patched. rewrite len_cons. pose proof (len_nonneg S).
  split; [lia|]. split; [intros j Hj Hr; rewrite O2 by lia; apply O1; lia|]. intros i Hi.
  destruct (Z.eq_dec i 0) as [->|Ni]; [rewrite Z.add_0_r, O2, V1 by lia; reflexivity|].
  replace (lo + i) with (lo + 1 + (i - 1)) by lia. rewrite V2 by lia. rewrite !tb_nonneg by lia.
  replace (Z.to_nat i) with (Datatypes.S (Z.to_nat (i - 1))) by lia. reflexivity.
Qed.

Lemma patched_back T T0 S lo hi T' : sv_tab T T0 S lo hi -> 0 <= lo -> patched T T' lo S -> T' = T0.
Proof.
  intros ((L & OO) & (LS & V)) Hl (L' & O' & V'). apply tb_ext; [lia|]. intros j Hj.
  destruct (Z_lt_ge_dec j lo) as [A|A]; [rewrite O' by lia; apply OO; lia|].
  destruct (Z_lt_ge_dec j hi) as [B|B]; [|rewrite O' by lia; apply OO; lia].
  replace j with (lo + (j - lo)) by lia. rewrite V', V by lia. reflexivity.
Qed.

Lemma restore_tables_spec : forall ts st line b bs sc st',
  restore_tables st line b bs ts sc = Ok st' -> 0 <= line -> len b = len ts -> len bs = len ts -> len sc = len ts ->
  patched (b_bMarks st) (b_bMarks st') line b /\ patched (b_bsCount st) (b_bsCount st') line bs
  /\ patched (b_tShift st) (b_tShift st') line ts /\ patched (b_sCount st) (b_sCount st') line sc
  /\ k5 st st' /\ b_lineMax st' = b_lineMax st.
Proof.
  induction ts as [|t ts IH]; intros st line b bs sc st' H Hl L1 L2 L3.
  - destruct b, bs, sc; try discriminate. injection H as <-. repeat split; apply patched_nil.
  - destruct b as [|x b]; [discriminate L1|]. destruct sc as [|s sc]; [discriminate L3|]. destruct bs as [|y bs]; [discriminate L2|].
    rewrite !len_cons in *.
    cbn [restore_tables] in H. rbind H as bm eqn:E1. rbind H as tsl eqn:E2. rbind H as scl eqn:E3. rbind H as bsl eqn:E4.
    apply IH in H; try lia. destruct H as (P1 & P2 & P3 & P4 & K & LM). cbn [b_bMarks b_bsCount b_tShift b_sCount set] in P1, P2, P3, P4.
    split; [exact (patched_cons _ _ _ _ _ _ E1 Hl P1)|]. split; [exact (patched_cons _ _ _ _ _ _ E4 Hl P2)|].
    split; [exact (patched_cons _ _ _ _ _ _ E2 Hl P3)|]. split; [exact (patched_cons _ _ _ _ _ _ E3 Hl P4)|]. split; [exact K | exact LM].
Qed.

(* one line's row is rewritten: source and end marks stay, the other four tables change at that line at most *)
Definition rowset (st st' : bstate) (l : Z) : Prop :=
  b_src st' = b_src st /\ b_eMarks st' = b_eMarks st /\ upd1 (b_bMarks st) (b_bMarks st') l /\ upd1 (b_bsCount st) (b_bsCount st') l
  /\ upd1 (b_tShift st) (b_tShift st') l /\ upd1 (b_sCount st) (b_sCount st') l.

(* the tables of st differ from those of st0 on [lo, hi) only, and sv holds what st0 has there *)
Definition sv4 (st st0 : bstate) (sv : saved) (lo hi : Z) : Prop :=
  sv_tab (b_bMarks st) (b_bMarks st0) (o_b sv) lo hi /\ sv_tab (b_bsCount st) (b_bsCount st0) (o_bs sv) lo hi
  /\ sv_tab (b_tShift st) (b_tShift st0) (o_ts sv) lo hi /\ sv_tab (b_sCount st) (b_sCount st0) (o_sc sv) lo hi.

Lemma save_line_vals sv st line sv' : save_line sv st line = Ok sv' ->
  exists b bs t sc, tb (b_bMarks st) line = Ok b /\ tb (b_bsCount st) line = Ok bs /\ tb (b_tShift st) line = Ok t /\ tb (b_sCount st) line = Ok sc
    /\ o_b sv' = o_b sv ++ [b] /\ o_bs sv' = o_bs sv ++ [bs] /\ o_ts sv' = o_ts sv ++ [t] /\ o_sc sv' = o_sc sv ++ [sc].
Proof.
  unfold save_line. intros H. do 4 rstep H. rfinish H. eexists _, _, _, _. repeat split.
Qed.

Lemma sv4_step st st0 sv lo hi sv' st' :
  sv4 st st0 sv lo hi -> 0 <= lo <= hi -> save_line sv st hi = Ok sv' -> rowset st st' hi -> sv4 st' st0 sv' lo (hi + 1).
Proof.
  intros (A & B & C & D) Hh SL (_ & _ & U1 & U2 & U3 & U4).
  destruct (save_line_vals _ _ _ _ SL) as (b & bs & t & sc & E1 & E2 & E3 & E4 & O1 & O2 & O3 & O4).
  unfold sv4. rewrite O1, O2, O3, O4. split; [|split; [|split]]; eapply sv_tab_step; eassumption.
Qed.

Lemma apply_bq_sets st line q st' : apply_bq st line q = Ok st' ->
  tb_set (b_bMarks st) line (q_bMark q) = Ok (b_bMarks st') /\ tb_set (b_bsCount st) line (q_bsCount q) = Ok (b_bsCount st')
  /\ tb_set (b_tShift st) line (q_tShift q) = Ok (b_tShift st') /\ tb_set (b_sCount st) line (q_sCount q) = Ok (b_sCount st')
  /\ b_src st' = b_src st /\ b_eMarks st' = b_eMarks st /\ b_lineMax st' = b_lineMax st.
Proof.
  unfold apply_bq. intros H. do 4 rstep H. rfinish H. repeat split.
Qed.

Lemma apply_bq_rowset st line q st' : apply_bq st line q = Ok st' -> 0 <= line -> rowset st st' line.
Proof.
  intros AB Hl. destruct (apply_bq_sets _ _ _ _ AB) as (W1 & W2 & W3 & W4 & ES & EE & _).
  exact (conj ES (conj EE (conj (proj1 (upd1_set _ _ _ _ W1 Hl)) (conj (proj1 (upd1_set _ _ _ _ W2 Hl))
           (conj (proj1 (upd1_set _ _ _ _ W3 Hl)) (proj1 (upd1_set _ _ _ _ W4 Hl))))))).
Qed.

Lemma sCount_rowset st l v scs : tb_set (b_sCount st) l v = Ok scs -> 0 <= l -> rowset st (st <| b_sCount := scs |>) l.
Proof.
  intros TS Hl. exact (conj eq_refl (conj eq_refl (conj (upd1_refl _ _) (conj (upd1_refl _ _) (conj (upd1_refl _ _) (proj1 (upd1_set _ _ _ _ TS Hl))))))).
Qed.

(* a start mark x and a tShift t that may be written into line l without breaking TI: with the end mark the line has *)
Definition goodbt (src : str) (eM : list Z) (l x t : Z) : Prop :=
  forall e, tb eM l = Ok e -> 0 <= x /\ 0 <= t /\ 0 <= e /\ forall p, x <= p < e -> py_idx src p <> Ok 10.

Lemma goodbt_after st l p x t : TI st -> 0 <= l -> line_start st l = Ok p -> p <= x -> 0 <= t ->
  goodbt (b_src st) (b_eMarks st) l x t.
Proof.
  unfold line_start. intros HT Hl LS Hx Ht e Ee.
  rbind LS as b0 eqn:Eb.
  rbind LS as t0 eqn:Et. injection LS as <-.
  destruct (HT l b0 e t0 Hl Eb Ee Et) as (A & B & C & D). repeat split; try lia. intros q Hq. apply D. lia.
Qed.

Lemma TIp_set src bM eM tS l x t bM' tS' :
  TIp src bM eM tS -> 0 <= l -> tb_set bM l x = Ok bM' -> tb_set tS l t = Ok tS' -> goodbt src eM l x t ->
  TIp src bM' eM tS'.
Proof.
  intros H Hl Sb St G l' b e t' Hl' Eb Ee Et.
  destruct (tb_set_spec _ _ _ _ Sb Hl) as (B1 & B2 & _). destruct (tb_set_spec _ _ _ _ St Hl) as (T1 & T2 & _).
  destruct (Z.eq_dec l' l) as [->|N].
  - rewrite B1 in Eb. rewrite T1 in Et. injection Eb as <-. injection Et as <-. exact (G e Ee).
  - rewrite B2 in Eb by lia. rewrite T2 in Et by lia. exact (H l' b e t' Hl' Eb Ee Et).
Qed.

Lemma TIp_set_ts src bM eM tS l t tS' :
  TIp src bM eM tS -> 0 <= l -> tb_set tS l t = Ok tS' -> 0 <= t -> TIp src bM eM tS'.
Proof.
  intros H Hl St Ht l' b e t' Hl' Eb Ee Et.
  destruct (tb_set_spec _ _ _ _ St Hl) as (T1 & T2 & _). destruct (tb_set_tb _ _ _ _ St Hl) as (t0 & E0).
  destruct (Z.eq_dec l' l) as [->|N]; [|rewrite T2 in Et by lia; exact (H l' b e t' Hl' Eb Ee Et)].
  rewrite T1 in Et. injection Et as <-.
  destruct (H l b e t0 Hl Eb Ee E0) as (A & B & C & D). repeat split; try lia. exact D.
Qed.

Lemma bq_blanks_mono : forall fuel src pos mx offset bs adj p2 o2,
  bq_blanks fuel src pos mx offset bs adj = Ok (p2, o2) -> pos <= p2 /\ offset <= o2.
Proof.
  induction fuel as [|f IH]; intros src pos mx offset bs adj p2 o2 H; cbn [bq_blanks] in H; [rfinish H; lia|].
  destruct (negb (pos <? mx)); [rfinish H; lia|].
  rstep H. destruct (is_space x); [|rfinish H; lia].
  apply IH in H. destruct (x =? 9); [|lia].
  assert (0 <= (offset + bs + (if adj then 1 else 0)) mod 4 < 4) by (apply Z.mod_pos_bound; lia). lia.
Qed.

Lemma match_32_9 {A} (o : option Z) (a b d : A) :
  match o with Some 32 => a | Some 9 => b | _ => d end
  = match o with Some c => if c =? 32 then a else if c =? 9 then b else d | None => d end.
Proof. destruct o as [[|p|p]|]; try reflexivity. do 6 (try destruct p as [p|p|]); reflexivity. Qed.

(* the three ways a marker is followed: by a space, by a tab (taken whole or in part), by anything else *)
Lemma bq_marker_shape src pos0 sc bs : exists pos1 initial adj sa,
  match char_at src (pos0 + 1) with
  | Some 32 => (pos0 + 1 + 1, sc + 1 + 1, sc + 1 + 1, false, true)
  | Some 9 => if (bs + (sc + 1)) mod 4 =? 3 then (pos0 + 1 + 1, sc + 1 + 1, sc + 1 + 1, false, true)
              else (pos0 + 1, sc + 1, sc + 1, true, true)
  | _ => (pos0 + 1, sc + 1, sc + 1, false, false)
  end = (pos1, initial, initial, adj, sa)
  /\ (pos1 = pos0 + 1 \/ pos1 = pos0 + 2 /\ exists c, char_at src (pos0 + 1) = Some c /\ is_space c = true)
  /\ bs + sc + 1 + (if sa then 1 else 0) = bs + (if adj then 1 else 0) + initial.
Proof.
  rewrite match_32_9.
  destruct (char_at src (pos0 + 1)) as [c|]; [destruct (Z.eqb_spec c 32) as [->|N1]; [|destruct (Z.eqb_spec c 9) as [->|N2]]|].
  3,4: exists (pos0 + 1), (sc + 1), false, false; split; [reflexivity|]; split; [left; reflexivity | lia].
  - exists (pos0 + 1 + 1), (sc + 1 + 1), false, true. split; [reflexivity|]. split; [right; split; [lia | exists 32; split; reflexivity] | lia].
  - destruct ((bs + (sc + 1)) mod 4 =? 3); [exists (pos0 + 1 + 1), (sc + 1 + 1), false, true | exists (pos0 + 1), (sc + 1), true, true];
      (split; [reflexivity|]); (split; [|lia]); [right; split; [lia | exists 9; split; reflexivity] | left; reflexivity].
Qed.

Lemma bq_strip_spec src pos0 mx sc bs q : bq_strip src pos0 mx sc bs = Ok q ->
  pos0 + 1 <= q_bMark q /\ 0 <= q_tShift q /\ 0 <= q_sCount q.
Proof.
  unfold bq_strip. cbv zeta. destruct (bq_marker_shape src pos0 sc bs) as (pos1 & initial & adj & sa & -> & P1 & _).
  intros H. rbind H as [p2 o2] eqn:BB. apply bq_blanks_mono in BB. rfinish H. cbn. lia.
Qed.

Lemma apply_bq_m st line q st' : apply_bq st line q = Ok st' -> 0 <= line -> TI st ->
  goodbt (b_src st) (b_eMarks st) line (q_bMark q) (q_tShift q) ->
  TI st' /\ k5 st st' /\ b_lineMax st' = b_lineMax st /\ tb (b_sCount st') line = Ok (q_sCount q)
  /\ (forall j, 0 <= j -> j <> line -> tb (b_sCount st') j = tb (b_sCount st) j).
Proof.
  unfold apply_bq. intros H Hl HT G.
  rbind H as bm eqn:E1.
  rbind H as bs eqn:E2.
  rbind H as sc eqn:E3.
  rbind H as ts eqn:E4.
  rfinish H. destruct (tb_set_spec _ _ _ _ E3 Hl) as (S1 & S2 & _).
  split; [exact (TIp_set _ _ _ _ _ _ _ _ _ HT Hl E1 E4 G)|]. split; [repeat split|]. split; [reflexivity|].
  split; [exact S1 | exact S2].
Qed.

Lemma TIp_restored src eM bM0 tS0 bM tS bM' tS' lo hi b ts :
  TIp src bM0 eM tS0 -> TIp src bM eM tS -> 0 <= lo -> holds b bM0 lo hi -> holds ts tS0 lo hi ->
  patched bM bM' lo b -> patched tS tS' lo ts -> TIp src bM' eM tS'.
Proof.
  intros H0 H Hl (Lb & Vb) (Lt & Vt) (_ & Ob & Wb) (_ & Ot & Wt) l x e t Hl' Eb Ee Et.
  destruct (Z_lt_ge_dec l lo) as [A|A]; [rewrite Ob in Eb by lia; rewrite Ot in Et by lia; exact (H l x e t Hl' Eb Ee Et)|].
  destruct (Z_lt_ge_dec l hi) as [B|B]; [|rewrite Ob in Eb by lia; rewrite Ot in Et by lia; exact (H l x e t Hl' Eb Ee Et)].
  apply (H0 l x e t Hl'); [|exact Ee|]; replace l with (lo + (l - lo)) by lia; [rewrite <- Vb, <- Wb by lia | rewrite <- Vt, <- Wt by lia];
    replace (lo + (l - lo)) with l by lia; assumption.
Qed.

Lemma list_blanks_mono : forall fuel src pos mx offset bs p2 o2,
  list_blanks fuel src pos mx offset bs = Ok (p2, o2) -> pos <= p2 /\ offset <= o2.
Proof. intros fuel src pos mx offset bs p2 o2. rewrite list_blanks_bq. apply bq_blanks_mono. Qed.

Lemma ordered_digits_le : forall fuel src start pos maximum r,
  ordered_digits fuel src start pos maximum = Ok r -> r = -1 \/ (pos < r <= maximum).
Proof.
  induction fuel as [|f IH]; intros src start pos maximum r H; cbn [ordered_digits] in H; [rfinish H; left; reflexivity|].
  destruct (maximum <=? pos) eqn:E; [rfinish H; left; reflexivity|].
  rstep H. cbv zeta in H. destruct (is_digit x).
  - destruct (10 <=? pos + 1 - start); [rfinish H; left; reflexivity|]. apply IH in H. lia.
  - destruct ((x =? 41) || (x =? 46)); [|rfinish H; left; reflexivity].
    destruct (pos + 1 <? maximum) eqn:PM; [|rfinish H; right; lia].
    rstep H. rfinish H. destruct (is_space x0); [right; lia | left; reflexivity].
Qed.

Lemma skip_ordered_gt st line r ls : skip_ordered st line = Ok r -> line_start st line = Ok ls -> r = -1 \/ ls < r.
Proof.
  unfold skip_ordered. intros H L. rewrite L in H. cbn [bind] in H.
  rstep H. destruct (x <=? ls + 1); [rfinish H; left; reflexivity|].
  rstep H. destruct (negb (is_digit x0)); [rfinish H; left; reflexivity|].
  apply ordered_digits_le in H. lia.
Qed.

Lemma skip_bullet_gt st line r ls : skip_bullet st line = Ok r -> line_start st line = Ok ls -> r = -1 \/ ls < r.
Proof.
  unfold skip_bullet. intros H L. rewrite L in H. cbn [bind] in H.
  rstep H. destruct (char_at (b_src st) ls) as [m|]; [|rfinish H; left; reflexivity].
  destruct (negb ((m =? 42) || (m =? 45) || (m =? 43))); [rfinish H; left; reflexivity|].
  destruct (ls + 1 <? x); [|rfinish H; right; lia].
  rstep H. rfinish H. destruct (is_space x0); [right; lia | left; reflexivity].
Qed.

Definition mapeq_from (k : nat) (a b : list token) : Prop := firstn k a = firstn k b /\ map tmap a = map tmap b.
Lemma mapeq_refl k l : mapeq_from k l l. Proof. split; reflexivity. Qed.
Lemma mapeq_trans k a b c : mapeq_from k a b -> mapeq_from k b c -> mapeq_from k a c.
Proof. intros [A1 A2] [B1 B2]. split; congruence. Qed.

Lemma update_nth_mapeq (f : token -> token) (K : forall t, tmap (f t) = tmap t) : forall n k l, (k <= n)%nat ->
  mapeq_from k l (update_nth_tok n f l).
Proof.
  unfold update_nth_tok. induction n as [|n IH]; intros k l Hk.
  - assert (k = O) by lia. subst k. destruct l as [|x l]; [apply mapeq_refl|].
    split; [reflexivity|]. cbn [map]. rewrite K. reflexivity.
  - destruct l as [|x l]; [apply mapeq_refl|].
    destruct k as [|k].
    + destruct (IH O l ltac:(lia)) as [_ F]. split; [reflexivity|]. cbn [map]. f_equal. exact F.
    + destruct (IH k l ltac:(lia)) as [P F]. split; [cbn [firstn]; f_equal; exact P|]. cbn [map]. f_equal. exact F.
Qed.

Lemma mark_tight_mapeq k : forall fuel tokens i length level, (k <= Z.to_nat i)%nat -> 0 <= i ->
  mapeq_from k tokens (mark_tight fuel tokens i length level).
Proof.
  induction fuel as [|f IH]; intros tokens i length level Hk Hi; cbn [mark_tight]; [apply mapeq_refl|].
  destruct (negb (i <? length)); [apply mapeq_refl|].
  destruct (nth_error tokens (Z.to_nat i)) as [t|]; [|apply mapeq_refl].
  destruct ((tlevel t =? level) && str_eqb (ttype t) [112; 97; 114; 97; 103; 114; 97; 112; 104; 95; 111; 112; 101; 110]).
  - eapply mapeq_trans; [|apply IH; lia].
    eapply mapeq_trans; apply update_nth_mapeq; try lia; intros x; reflexivity.
  - apply IH; lia.
Qed.

Lemma Forall_map_in_tmap lo hi : forall a b, map tmap a = map tmap b -> Forall (map_in lo hi) a -> Forall (map_in lo hi) b.
Proof.
  induction a as [|x a IH]; intros b E F; destruct b as [|y b]; try discriminate E; [constructor|].
  cbn [map] in E. injection E as E1 E2. inversion F; subst. constructor; [|apply IH; assumption].
  unfold map_in in *. rewrite <- E1. assumption.
Qed.

Lemma mapeq_container (pre : list token) lo its cl X :
  mapeq_from (length pre) (pre ++ lo :: its ++ [cl]) X ->
  exists lo' its' cl', X = pre ++ lo' :: its' ++ [cl'] /\ tmap lo' = tmap lo /\ map tmap its' = map tmap its /\ tmap cl' = tmap cl.
Proof.
  intros [P M]. rewrite firstn_app, Nat.sub_diag, firstn_all in P. cbn [firstn] in P. rewrite app_nil_r in P.
  rewrite <- (firstn_skipn (length pre) X), <- P in M |- *. generalize dependent (skipn (length pre) X). clear X P. intros Y M.
  rewrite !map_app in M. apply app_inv_head in M. destruct Y as [|lo' rest]; cbn [map] in M; [discriminate M|]. injection M as ML MR.
  rewrite map_app in MR. cbn [map] in MR.
  destruct (@exists_last _ rest) as (its' & cl' & ->); [intros ->; destruct (map tmap its); discriminate MR|].
  rewrite map_app in MR. cbn [map] in MR. apply app_inj_tail in MR. destruct MR as [MI MC].
  exists lo', its', cl'. repeat split; congruence.
Qed.

Theorem state_init_TI src env toks : TI (state_init src env toks).
Proof.
  destruct (state_init_rows src (fun _ _ _ => True) (fun _ => I) (fun _ _ _ _ _ _ _ _ => I) env toks) as (L & Hb & He & Ht & _ & _ & _ & _ & F & _).
  unfold TI, TIp. rewrite Hb, He, Ht. intros l b e t Hl Eb Ee Et.
  destruct (tb_map3 _ _ _ _ _ _ _ _ Hl Eb Ee Et) as (w & Nw & -> & -> & ->).
  rewrite Forall_forall in F. destruct (F w (nth_error_In _ _ Nw)) as (B0 & T0 & BE & NL & _). repeat split; try lia. exact NL.
Qed.

Section Parser.
Context (cfg : bcfg) (rf cf : str -> str).


Lemma leaf_rule_c st sl el silent b st' : leaf_c st sl el silent b st' -> rule_c st sl el silent b st'.
Proof.
  unfold leaf_c, rule_c. destruct (b && negb silent); [|intros ->; apply fr_refl].
  intros ((lvl & toks & l & F) & (L & seg & E & _ & FS) & B) (P0 & P1 & P2 & P3 & HT).
  assert (S : stb st st') by (rewrite F; repeat split). pose proof (stb_TI _ _ S HT) as HT'. destruct S as (S1 & _ & S3 & _ & _ & _ & S5).
  split; [exact S5|]. split; [specialize (B P1); lia|]. split; [exists seg; split; assumption|]. split; [exact HT' | split; assumption].
Qed.

Definition term_fr (term : term_t) : Prop := forall ch s a b r s', ch <> [] -> term ch s a b = Ok (r, s') -> fr s s'.

Lemma para_scan_fr term (T : term_fr term) chain (CN : chain <> []) : forall fuel st nl el cu r u st',
  para_scan fuel term chain st nl el cu = Ok (r, u, st') -> fr st st'.
Proof. apply (para_scan_rel fr fr_refl fr_trans). intros s a b r s'. apply T, CN. Qed.

Lemma step_ok_stb st sl st' : stb st st' -> TI st -> sl < b_line st' <= b_lineMax st -> gm sl (b_line st') st st' -> step_ok st sl st'.
Proof.
  intros S HT B G. pose proof (stb_TI _ _ S HT) as HT'. destruct S as (S1 & _ & S3 & _ & _ & _ & S5).
  split; [exact S5|]. split; [exact B|]. split; [exact G|]. split; [exact HT' | split; assumption].
Qed.

Lemma run_fail st sl el silent st' : fr st st' -> stb st st' /\ rule_c st sl el silent false st'.
Proof. intros F. exact (conj (fr_stb _ _ F) F). Qed.
Lemma run_silent st sl el b st' : fr st st' -> stb st st' /\ rule_c st sl el true b st'.
Proof. intros F. exact (conj (fr_stb _ _ F) (rule_c_silent _ _ _ _ _ F)). Qed.
Lemma run_ok st sl el st' : stb st st' -> (pre st sl el -> sl < b_line st' <= b_lineMax st /\ gm sl (b_line st') st st') ->
  stb st st' /\ rule_c st sl el false true st'.
Proof. intros S H. split; [exact S|]. intros P. destruct (H P) as [B G]. exact (step_ok_stb _ _ _ S (proj2 (proj2 (proj2 (proj2 P)))) B G). Qed.
Lemma run_leaf st sl el st' : stb st st' -> (pre st sl el -> leaf_maps st sl st' /\ b_line st' <= b_lineMax st) ->
  stb st st' /\ rule_c st sl el false true st'.
Proof. intros S H. apply run_ok; [exact S|]. intros P. destruct (H P) as [(L & seg & E & _ & F) B]. split; [lia | exists seg; split; assumption]. Qed.

Ltac leaf_fail := first [ apply run_fail; apply fr_refl | apply run_silent; apply fr_refl ].

Lemma r_paragraph_run term (T : term_fr term) st sl el b st' :
  r_paragraph term st sl el false = Ok (b, st') -> b = true /\ stb st st' /\ rule_c st sl el false true st'.
Proof.
  unfold r_paragraph. intros H.
  rbind H as [[nl u] st1] eqn:PS.
  pose proof (para_scan_bounds _ _ _ _ _ _ _ _ _ _ PS) as (P1 & P2 & _). cbn [b_lineMax st_parent set] in P2.
  apply (para_scan_fr term T nm_paragraph ltac:(discriminate)) in PS. apply (fr_parent_l st _ nm_paragraph) in PS.
  rstep H. rfinish H. split; [reflexivity|].
  apply run_leaf; [eapply stb_trans; [apply fr_stb, PS | repeat split]|]. intros (Q0 & Q1 & Q2 & Q3 & HTI). split; [|cbn; lia].
  apply para_push_maps; [exact (fr_tokens _ _ PS) | lia | lia | reflexivity | reflexivity].
Qed.

Lemma r_paragraph_c term (T : term_fr term) st sl el b st' :
  r_paragraph term st sl el false = Ok (b, st') -> b = true /\ (pre st sl el -> step_ok st sl st').
Proof. intros H. destruct (r_paragraph_run term T _ _ _ _ _ H) as (B & _ & C). exact (conj B C). Qed.

Lemma r_lheading_run term (T : term_fr term) st sl el b st' :
  r_lheading cfg term st sl el false = Ok (b, st') -> stb st st' /\ rule_c st sl el false b st'.
Proof.
  unfold r_lheading. intros H. rstep H. rstep H; [rfinish H; leaf_fail|].
  rbind H as [[nl u] st1] eqn:PS.
  pose proof (para_scan_bounds _ _ _ _ _ _ _ _ _ _ PS) as (P1 & P2 & P3).
  apply (para_scan_fr term T nm_paragraph ltac:(discriminate)) in PS. apply (fr_parent_l st _ nm_paragraph) in PS.
  destruct u as [[marker level]|]; [|rfinish H; apply run_fail; exact PS].
  assert (P3' : nl < el) by (apply P3; discriminate).
  rstep H. rfinish H.
  apply run_leaf; [eapply stb_trans; [apply fr_stb, PS | repeat split]|]. intros (Q0 & Q1 & Q2 & Q3 & HTI). split; [|cbn; lia].
  apply para_push_maps; [exact (fr_tokens _ _ PS) | lia | lia | reflexivity | reflexivity].
Qed.

Lemma r_lheading_c term (T : term_fr term) st sl el b st' :
  r_lheading cfg term st sl el false = Ok (b, st') -> rule_c st sl el false b st'.
Proof. intros H. exact (proj2 (r_lheading_run term T _ _ _ _ _ H)). Qed.

Lemma r_reference_run term (T : term_fr term) st sl el silent b st' :
  r_reference cfg rf cf term st sl el silent = Ok (b, st') -> stb st st' /\ rule_c st sl el silent b st'.
Proof.
  rewrite r_reference_eq. intros H.
  rstep H. rstep H; [rfinish H; leaf_fail|].
  rbind H as [[nl u] st1] eqn:PS.
  pose proof (para_scan_bounds _ _ _ _ _ _ _ _ _ _ PS) as (P1 & P2 & _). cbn [b_lineMax st_parent set] in P2.
  apply (para_scan_fr term T nm_reference ltac:(discriminate)) in PS. apply (fr_parent_l st _ nm_reference) in PS.
  rbind H as raw eqn:GL.
  destruct (ref_parse rf cf (py_strip raw)) as [[[[[rawlabel label] title] href] lines]|] eqn:RP; [|rfinish H; apply run_fail; exact PS].
  apply ref_parse_lines in RP.
  destruct silent; rfinish H; [apply run_silent; exact PS|]. unfold ref_define.
  apply run_ok; [eapply stb_trans; [apply fr_stb, PS | destruct (c_inline_defs cfg); repeat split]|]. intros (Q0 & Q1 & Q2 & Q3 & HTI).
  (* the text of the lines has at most one line feed per line but the last; stripping removes none that the count needs *)
  pose proof (c10_strip is_py_space raw) as X. fold (py_strip raw) in X.
  pose proof (get_lines_lf st1 (fr_TI _ _ PS HTI) _ _ _ false raw GL Q0) as LR. cbv iota in LR.
  specialize (P2 ltac:(lia)). split.
  - destruct (c_inline_defs cfg); cbn; lia.
  - destruct (c_inline_defs cfg); [|apply gm_nil; exact (fr_tokens _ _ PS)].
    apply gm_push1; [exact (fr_tokens _ _ PS) | unfold map_in; cbn; lia].
Qed.

Lemma r_reference_c term (T : term_fr term) st sl el silent b st' :
  r_reference cfg rf cf term st sl el silent = Ok (b, st') -> rule_c st sl el silent b st'.
Proof. intros H. exact (proj2 (r_reference_run term T _ _ _ _ _ _ H)). Qed.

Definition row_tok (l : Z) (t : token) : Prop :=
  match tmap t with Some m => m = (l, l + 1) | None => ttype t <> s_tr_open end.
Definition row_in (L : Z -> Prop) (lo hi : Z) (t : token) : Prop := exists l, lo <= l < hi /\ L l /\ row_tok l t.

Lemma row_tok_map_in l lo hi t : row_tok l t -> lo <= l -> l < hi -> map_in lo hi t.
Proof. unfold row_tok, map_in. destruct (tmap t) as [[x y]|]; [intros E; injection E as -> ->; lia | trivial]. Qed.

Lemma push_cells_row l oty cty tag sne (Ho : oty <> s_tr_open) (Hc : cty <> s_tr_open) : forall aligns st cols,
  appends (row_tok l) st (push_cells st oty cty tag aligns cols l (l + 1) sne) /\ stb st (push_cells st oty cty tag aligns cols l (l + 1) sne).
Proof.
  induction aligns as [|al aligns IH]; intros st cols; cbn [push_cells]; [split; [apply appends_nil; reflexivity | apply stb_refl]|].
  match goal with |- appends _ _ (push_cells ?s _ _ _ _ ?c _ _ _) /\ _ => destruct (IH s c) as [A S] end.
  split; [|eapply stb_trans; [|exact S]; repeat split].
  eapply appends_trans; [|exact A].
  eexists. split; [unfold push_inline; rewrite !bpush_tokens, <- !app_assoc; cbn [app]; reflexivity|].
  repeat constructor; [unfold cell_attrs; destruct al; exact Ho | exact Hc].
Qed.

Lemma row_push l st oty cty tag aligns cols sne : oty <> s_tr_open -> cty <> s_tr_open ->
  let st' := bpush (push_cells (bpush st s_tr_open s_tr 1 (map_tok l (l + 1))) oty cty tag aligns cols l (l + 1) sne) s_tr_close s_tr (-1) (fun t => t) in
  appends (row_tok l) st st' /\ stb st st'.
Proof.
  intros Ho Hc. cbv zeta.
  match goal with |- appends _ _ (bpush (push_cells ?s _ _ _ _ _ _ _ _) _ _ _ _) /\ _ => destruct (push_cells_row l oty cty tag sne Ho Hc aligns s cols) as [A S] end.
  split; [|eapply stb_trans; [|apply stb_bpush]; eapply stb_trans; [apply stb_bpush | exact S]].
  eapply appends_trans; [|eapply appends_trans; [exact A | apply appends_push; discriminate]]. apply appends_push. exact eq_refl.
Qed.

(* one round of the row loop: it stops at nl, or line nl has text and its row is pushed - behind the tbody_open placeholder
   when this is the first body line - and the loop goes on from nl + 1 *)
Lemma table_rows_round term (T : term_fr term) f st aligns sl nl el tbody r tb' st' :
  table_rows cfg (S f) term st aligns sl nl el tbody = Ok (r, tb', st') ->
  (r = nl /\ tb' = tbody /\ fr st st')
  \/ exists s5 tb2, nl < el /\ (exists s raw, stb st s /\ get_line s nl = Ok raw /\ py_strip raw <> []) /\ stb st s5
       /\ table_rows cfg f term s5 aligns sl (nl + 1) el tb2 = Ok (r, tb', st')
       /\ if nl =? sl + 2
          then tb2 = Some (length (b_tokens st)) /\ exists ph rest, b_tokens s5 = b_tokens st ++ ph :: rest /\ ttype ph <> s_tr_open /\ Forall (row_tok nl) rest
          else tb2 = tbody /\ appends (row_tok nl) st s5.
Proof.
  cbn [table_rows]. intros H.
  destruct (negb (nl <? el)) eqn:NE; [rfinish H; left; repeat split; apply fr_refl|].
  rstep H. rstep H; [rfinish H; left; repeat split; apply fr_refl|].
  rbind H as [t st1] eqn:TE.
  pose proof (T nm_blockquote _ _ _ _ _ ltac:(discriminate) TE) as F. pose proof (fr_stb _ _ F) as S1. pose proof (fr_tokens _ _ F) as ET.
  destruct t; [rfinish H; left; repeat split; exact F|].
  rbind H as raw eqn:GL.
  destruct (py_strip raw) as [|c0 lt] eqn:LT; [rfinish H; left; repeat split; exact F|].
  rstep H. rstep H; [rfinish H; left; repeat split; exact F|].
  right. destruct (nl =? sl + 2); cbv iota zeta in H.
  all: match type of H with table_rows _ _ _ (bpush (push_cells (bpush ?s _ _ _ _) ?o ?c ?g ?al ?co _ _ ?sn) _ _ _ _) _ _ _ _ _ = _ =>
         destruct (row_push nl s o c g al co sn ltac:(discriminate) ltac:(discriminate)) as [(seg & E5 & F5) S5] end.
  all: eexists _, _; split; [lia|]; split; [exists st1, raw; rewrite LT; split; [exact S1|]; split; [exact GL | discriminate]|].
  all: split; [|split; [exact H|]].
  - eapply stb_trans; [exact S1|]. eapply stb_trans; [apply stb_bpush | exact S5].
  - rewrite ET. split; [reflexivity|]. eexists _, seg. split; [rewrite E5, bpush_tokens, ET, <- app_assoc; reflexivity|]. split; [discriminate | exact F5].
  - exact (stb_trans _ _ _ S1 S5).
  - split; [reflexivity|]. exists seg. split; [rewrite E5, ET; reflexivity | exact F5].
Qed.

Lemma table_rows_stb term (T : term_fr term) : forall fuel st aligns sl nl el tbody r tb' st',
  table_rows cfg fuel term st aligns sl nl el tbody = Ok (r, tb', st') -> stb st st'.
Proof.
  induction fuel as [|f IH]; intros st aligns sl nl el tbody r tb' st' H; [discriminate H|].
  apply (table_rows_round term T) in H. destruct H as [(_ & _ & F)|(s5 & tb2 & _ & _ & S5 & H & _)]; [exact (fr_stb _ _ F)|].
  exact (stb_trans _ _ _ S5 (IH _ _ _ _ _ _ _ _ _ H)).
Qed.

Lemma table_rows_later (L : Z -> Prop) term (T : term_fr term) st0
    (HL : forall s l raw, stb st0 s -> get_line s l = Ok raw -> py_strip raw <> [] -> L l) :
  forall fuel st aligns sl nl el tbody r tb' st', stb st0 st -> sl + 2 < nl -> nl <= el ->
  table_rows cfg fuel term st aligns sl nl el tbody = Ok (r, tb', st') ->
  tb' = tbody /\ nl <= r <= el /\ stb st0 st' /\ appends (row_in L nl r) st st'.
Proof.
  induction fuel as [|f IH]; intros st aligns sl nl el tbody r tb' st' S G LE H; [discriminate H|].
  apply (table_rows_round term T) in H.
  destruct H as [(-> & -> & F)|(s5 & tb2 & LT & (s & raw & S1 & GL & NE) & S5 & H & R)].
  { split; [reflexivity|]. split; [lia|]. split; [exact (stb_trans _ _ _ S (fr_stb _ _ F)) | apply appends_nil, fr_tokens, F]. }
  assert (N : (nl =? sl + 2) = false) by lia. rewrite N in R. destruct R as [-> A].
  apply IH in H; [|exact (stb_trans _ _ _ S S5)|lia|lia]. destruct H as (-> & B & S' & A').
  split; [reflexivity|]. split; [lia|]. split; [exact S'|].
  pose proof (HL s nl raw (stb_trans _ _ _ S S1) GL NE) as Ll.
  eapply appends_trans; [eapply appends_impl; [|exact A] | eapply appends_impl; [|exact A']].
  - intros t R. exists nl. split; [lia|]. split; assumption.
  - intros t (l & Bl & R). exists l. split; [lia | exact R].
Qed.

Lemma table_rows_first (L : Z -> Prop) term (T : term_fr term) st
    (HL : forall s l raw, stb st s -> get_line s l = Ok raw -> py_strip raw <> [] -> L l) fuel aligns sl el r tb' st' :
  table_rows cfg fuel term st aligns sl (sl + 2) el None = Ok (r, tb', st') ->
  sl + 2 <= r /\ (sl + 2 <= el -> r <= el) /\ stb st st' /\
  ((tb' = None /\ b_tokens st' = b_tokens st)
   \/ (exists ph rest, tb' = Some (length (b_tokens st)) /\ b_tokens st' = b_tokens st ++ ph :: rest /\ ttype ph <> s_tr_open
                       /\ Forall (row_in L (sl + 2) r) rest /\ sl + 2 < r)).
Proof.
  destruct fuel as [|f]; intros H; [discriminate H|].
  apply (table_rows_round term T) in H.
  destruct H as [(-> & -> & F)|(s5 & tb2 & LT & (s & raw & S1 & GL & NE) & S5 & H & R)].
  { split; [lia|]. split; [exact (fun x => x)|]. split; [apply fr_stb, F|]. left. split; [reflexivity | apply fr_tokens, F]. }
  rewrite Z.eqb_refl in R. destruct R as (-> & ph & rest & E5 & NP & F5).
  apply (table_rows_later L term T st HL) in H; [|exact S5|lia|lia]. destruct H as (-> & B & S' & seg & E' & F').
  split; [lia|]. split; [lia|]. split; [exact S'|]. right. exists ph, (rest ++ seg).
  split; [reflexivity|]. split; [rewrite E', E5, <- app_assoc; reflexivity|]. split; [exact NP|]. split; [|lia].
  pose proof (HL s (sl + 2) raw S1 GL NE) as Ll.
  apply Forall_app. split; (eapply Forall_impl; [|eassumption]).
  - intros t R. exists (sl + 2). split; [lia|]. split; assumption.
  - intros t (l & Bl & R). exists l. split; [lia | exact R].
Qed.

Lemma table_st6_run st aligns columns sl : exists tph hseg,
  b_tokens (table_st6 st aligns columns sl) = b_tokens st ++ tph :: hseg /\ Forall (row_tok sl) hseg /\ stb st (table_st6 st aligns columns sl).
Proof.
  unfold table_st6. cbv zeta. set (st2 := bpush (table_st1 st sl) _ _ 1 _).
  destruct (row_push sl st2 [116; 104; 95; 111; 112; 101; 110] [116; 104; 95; 99; 108; 111; 115; 101] [116; 104] aligns columns false
              ltac:(discriminate) ltac:(discriminate)) as [(hseg & EH & FH) SH].
  eexists _, (_ :: hseg ++ [_]).
  split; [rewrite bpush_tokens, EH; unfold st2, table_st1; rewrite !bpush_tokens, <- !app_assoc; reflexivity|].
  split; [constructor; [exact eq_refl|]; apply Forall_app; split; [exact FH|]; constructor; [discriminate | constructor]|].
  eapply stb_trans; [|apply stb_bpush]. eapply stb_trans; [|exact SH]. repeat split.
Qed.

Lemma r_table_run term (T : term_fr term) st sl el silent b st' :
  r_table cfg term st sl el silent = Ok (b, st') -> stb st st' /\ rule_c st sl el silent b st'.
Proof.
  rewrite r_table_eq. intros H.
  rbind H as h eqn:HD. destruct h as [[aligns columns]|]; [|rfinish H; leaf_fail].
  destruct silent; [rfinish H; leaf_fail|].
  assert (EL2 : sl + 2 <= el) by (unfold table_head in HD; destruct (el <? sl + 2) eqn:X; [discriminate HD | lia]).
  rbind H as [[nl tbody] st7] eqn:TR. rfinish H.
  destruct (table_st6_run st aligns columns sl) as (tph & hseg & E6t & FH & S6).
  set (st6 := table_st6 st aligns columns sl) in *. clearbody st6.
  apply (table_rows_first (fun _ => True) term T) in TR; [|exact (fun _ _ _ _ _ _ => I)]. destruct TR as (B1 & B2 & S & Cases). specialize (B2 EL2).
  assert (FH' : Forall (map_in sl nl) hseg) by (eapply Forall_impl; [|exact FH]; intros t R; apply (row_tok_map_in sl); [exact R | lia | lia]).
  pose proof (stb_trans _ _ _ S6 S) as (T1 & T2 & T3 & T4 & T5 & T6 & T7). unfold table_st10. cbv zeta.
  apply run_ok; [destruct tbody; repeat split; assumption|]. intros (Q0 & Q1 & Q2 & Q3 & HTI). split; [cbn [b_line st_line set]; lia|].
  match goal with |- gm _ _ _ ?X => change (gm sl nl st X) end.
  destruct Cases as [[-> ET7]|(ph & rest & -> & ET7 & _ & FR & LT)].
  - rewrite E6t in ET7.
    destruct (close_container st st7 _ _ [116; 97; 98; 108; 101; 95; 99; 108; 111; 115; 101] nm_table (fun t => t) sl nl ET7) as (cl & EC & MC).
    eapply gm_container; [exact EC | exact eq_refl | lia | exact FH' | exact (MC (fun _ => eq_refl))].
  - destruct (close_container st6 st7 _ _ [116; 98; 111; 100; 121; 95; 99; 108; 111; 115; 101] [116; 98; 111; 100; 121] (fun t => t) (sl + 2) nl ET7) as (cb & EB & MB).
    set (s8 := _ <| b_tokens := set_map_at _ (length (b_tokens st6)) _ |>).
    assert (E8 : b_tokens s8 = b_tokens st ++ tph :: hseg ++ set_map ph (Some (sl + 2, nl)) :: rest ++ [cb])
      by (etransitivity; [exact EB|]; rewrite E6t, <- app_assoc; reflexivity).
    destruct (close_container st s8 _ _ [116; 97; 98; 108; 101; 95; 99; 108; 111; 115; 101] nm_table (fun t => t) sl nl E8) as (cl & EC & MC).
    eapply gm_container; [exact EC | exact eq_refl | lia | | exact (MC (fun _ => eq_refl))].
    apply Forall_app. split; [exact FH'|]. constructor; [unfold map_in; cbn; lia|].
    apply Forall_app. split; [|constructor; [unfold map_in; rewrite (MB (fun _ => eq_refl)); exact I | constructor]].
    eapply Forall_impl; [|exact FR]. intros t (l & Bl & _ & R). apply (row_tok_map_in l); [exact R | lia | lia].
Qed.

Lemma r_table_c term (T : term_fr term) st sl el silent b st' :
  r_table cfg term st sl el silent = Ok (b, st') -> rule_c st sl el silent b st'.
Proof. intros H. exact (proj2 (r_table_run term T _ _ _ _ _ _ H)). Qed.

(* the seven conjuncts of bq_loop_m's conclusion, none of them split further (two are conjunctions themselves) *)
Ltac split7 := refine (conj _ (conj _ (conj _ (conj _ (conj _ (conj _ _)))))).

(* st0 is the state the rule was entered with and sl0 its first line. The rows saved reach up to the line r the loop stops
   on, or one more: where a terminator stops the quote and blkIndent is not 0 (inside a list) the loop saves row r too and
   rewrites its sCount before it returns (blockquote.py, "if state.blkIndent != 0") *)
Lemma bq_loop_m term (T : term_fr term) st0 sl0 : forall fuel st sv nl el lle r sv' st',
  bq_loop fuel term st sv nl el lle = Ok (r, sv', st') ->
  0 <= sl0 <= nl -> nl <= el -> el <= b_lineMax st -> TI st -> sv4 st st0 sv sl0 nl ->
  nl <= r <= el /\ r <= b_lineMax st' /\ b_lineMax st' <= b_lineMax st /\ TI st'
  /\ (exists hi, r <= hi <= r + 1 /\ sv4 st' st0 sv' sl0 hi) /\ k5 st st'
  /\ (forall j, 0 <= j < nl -> tb (b_sCount st') j = tb (b_sCount st) j).
Proof.
  induction fuel as [|f IH]; intros st sv nl el lle r sv' st' H S0 L0 L1 HT S4; [discriminate H|].
  cbn [bq_loop] in H.
  match goal with |- ?G => assert (STOP : Ok (nl, sv, st) = Ok (r, sv', st') -> G)
    by (intros E; injection E as <- <- <-; split7; first [lia | assumption | apply k5_refl | (intros; reflexivity) | (exists nl; split; [lia | exact S4])]) end.
  destruct (negb (nl <? el)) eqn:NE; [exact (STOP H)|].
  rbind H as sc eqn:Esc. rbind H as pos eqn:LS. rbind H as mx eqn:Ee.
  destruct (mx <=? pos) eqn:MP; [exact (STOP H)|].
  rstep H. cbv zeta in H.
  destruct ((x =? 62) && negb (sc <? b_blkIndent st)) eqn:Q.
  - (* a quoted line *)
    rstep H. rbind H as q eqn:BS. rbind H as sv1 eqn:SL. rbind H as st1 eqn:AB.
    apply bq_strip_spec in BS. destruct BS as (Q1 & Q2 & Q3).
    pose proof (goodbt_after st nl pos (q_bMark q) (q_tShift q) HT ltac:(lia) LS ltac:(lia) Q2) as G.
    destruct (apply_bq_m _ _ _ _ AB ltac:(lia) HT G) as (HT1 & K1 & LM1 & SC1 & SC2).
    pose proof (sv4_step _ _ _ _ _ _ _ S4 S0 SL (apply_bq_rowset _ _ _ _ AB ltac:(lia))) as S41.
    apply IH in H; try lia; try assumption.
    destruct H as (A & B & C & D & (hi & E1 & E2) & F & G2). split7; try lia; try assumption; [exists hi; split; [lia | exact E2] | exact (k5_trans _ _ _ K1 F)|].
    intros j Hj. rewrite G2 by lia. apply SC2; lia.
  - destruct lle; [exact (STOP H)|].
    rbind H as [t st1] eqn:TE.
    pose proof (T nm_blockquote _ _ _ _ _ ltac:(discriminate) TE) as E1. pose proof (fr_k5 _ _ E1) as K1. pose proof K1 as (K11 & K12 & K13 & K14 & K15).
    pose proof (fr_TI _ _ E1 HT) as HT1. pose proof (fr_lineMax _ _ E1) as LM1. pose proof (fr_sCount _ _ E1) as SC1.
    assert (S41 : sv4 st1 st0 sv sl0 nl) by (rewrite E1; exact S4).
    destruct t.
    + (* a terminator stops the quote here *)
      cbv zeta in H. destruct (negb (b_blkIndent (st1 <| b_lineMax := nl |>) =? 0)).
      * rbind H as sv1 eqn:SL. rbind H as scs eqn:TS.
        injection H as <- <- <-. destruct (tb_set_spec _ _ _ _ TS ltac:(lia)) as (_ & W2 & _).
        assert (S41' : sv4 (st1 <| b_lineMax := nl |>) st0 sv sl0 nl) by exact S41.
        pose proof (sv4_step _ _ _ _ _ _ _ S41' S0 SL (sCount_rowset _ _ _ _ TS ltac:(lia))) as S42.
        split7; cbn; try lia; try assumption; try (repeat split; assumption); [exists (nl + 1); split; [lia | exact S42]|].
        intros j Hj. rewrite W2 by lia. cbn. rewrite SC1. reflexivity.
      * injection H as <- <- <-. split7; cbn; try lia; try assumption; try (repeat split; assumption); [exists nl; split; [lia | exact S41]|].
        intros j Hj. rewrite SC1. reflexivity.
    + (* a lazy continuation line *)
      rbind H as sv1 eqn:SL. rbind H as scs eqn:TS.
      destruct (tb_set_spec _ _ _ _ TS ltac:(lia)) as (_ & W2 & _).
      pose proof (sv4_step _ _ _ _ _ _ _ S41 S0 SL (sCount_rowset _ _ _ _ TS ltac:(lia))) as S42.
      apply IH in H; try lia; try assumption; [|cbn; lia].
      destruct H as (A & B & C & D & (hi & E2 & E3) & F & G2). split7; try lia; try assumption; [cbn in C; lia | exists hi; split; [lia | exact E3] | exact (k5_trans _ _ _ K1 F)|].
      intros j Hj. rewrite G2 by lia. cbn. rewrite W2 by lia. rewrite SC1. reflexivity.
Qed.

(* line a is one on which the line loop makes progress: it is blank and not the last (the loop steps over it), or it
   is indented at least to the block indent (a rule is tried on it, and the paragraph rule succeeds if no other does) *)
Definition first_ok (st : bstate) (a : Z) : Prop :=
  (exists p e, line_start st a = Ok p /\ tb (b_eMarks st) a = Ok e /\ e <= p /\ a < b_lineMax st)
  \/ (forall sc, tb (b_sCount st) a = Ok sc -> b_blkIndent st <= sc).

(* the contract of the nested tokenize; its last conjunct carries "a container's map is not empty" through the
   recursion: block quote and list item call it on a first line that is first_ok *)
Definition rec_c (rec : rec_t) : Prop := forall st a b st',
  rec st a b = Ok st' -> 0 <= a -> a < b -> b <= b_lineMax st -> TI st ->
  b_lineMax st' = b_lineMax st /\ a <= b_line st' <= b_lineMax st /\ gm a (b_line st') st st' /\ TI st'
  /\ b_src st' = b_src st /\ b_eMarks st' = b_eMarks st /\ (first_ok st a -> a < b_line st').

Lemma rec_c_step rec (R : rec_c rec) st a b st' :
  rec st a b = Ok st' -> 0 <= a -> a < b -> b <= b_lineMax st -> TI st -> first_ok st a -> step_ok st a st'.
Proof.
  intros H A0 AB BL HT FO. destruct (R _ _ _ _ H A0 AB BL HT) as (C1 & C2 & C3 & C4 & C5 & C6 & C7). specialize (C7 FO).
  split; [exact C1|]. split; [lia|]. split; [exact C3|]. split; [exact C4 | split; assumption].
Qed.

Lemma bq_lines term (T : term_fr term) st sl el pos mx sc bs q sv0 st1 p fuel nl sv st3 :
  TI st -> 0 <= sl -> sl < el -> el <= b_lineMax st -> line_start st sl = Ok pos ->
  bq_strip (b_src st) pos mx sc bs = Ok q -> save_line (mkSaved [] [] [] []) st sl = Ok sv0 -> apply_bq st sl q = Ok st1 ->
  bq_loop fuel term (st_parent st1 p) sv0 (sl + 1) el (q_empty q) = Ok (nl, sv, st3) ->
  sl < nl <= el /\ nl <= b_lineMax st3 /\ b_lineMax st3 <= b_lineMax st /\ TI st3
  /\ (exists hi, nl <= hi <= nl + 1 /\ sv4 st3 st sv sl hi) /\ k5 st st3 /\ (forall s0, tb (b_sCount st3) sl = Ok s0 -> 0 <= s0).
Proof.
  intros HT Q0 Q1 Q2 LS BS SL AB BL.
  apply bq_strip_spec in BS. destruct BS as (B1 & B2 & B3).
  pose proof (goodbt_after st sl pos (q_bMark q) (q_tShift q) HT Q0 LS ltac:(lia) B2) as G.
  destruct (apply_bq_m _ _ _ _ AB Q0 HT G) as (HT1 & K1 & LM1 & SC1 & _).
  assert (S40 : sv4 st st (mkSaved [] [] [] []) sl sl) by (split; [|split; [|split]]; apply sv_tab_init).
  pose proof (sv4_step _ _ _ _ _ _ _ S40 ltac:(lia) SL (apply_bq_rowset _ _ _ _ AB Q0)) as S41.
  apply (bq_loop_m term T st sl) in BL; [|lia|lia|cbn; lia|exact HT1|exact S41].
  destruct BL as (L1 & L2 & L3 & HT3 & S43 & K3 & SC3).
  split; [lia|]. split; [exact L2|]. split; [cbn in L3; lia|]. split; [exact HT3|]. split; [exact S43|]. split; [exact (k5_trans _ _ _ K1 K3)|].
  intros s0 E0. rewrite SC3 in E0 by lia. cbn in E0. rewrite SC1 in E0. injection E0 as <-. exact B3.
Qed.

(* C03, containment: the block quote token's own map is exactly the line range the rule consumed, and every token inside
   the quote has its map inside that range *)
Lemma r_blockquote_run rec term (R : rec_c rec) (T : term_fr term) st sl el silent b st' :
  r_blockquote cfg rec term st sl el silent = Ok (b, st') ->
  if b && negb silent
  then pre st sl el -> step_ok st sl st' /\
       exists op seg cl, b_tokens st' = b_tokens st ++ op :: seg ++ [cl]
         /\ tmap op = Some (sl, b_line st') /\ ttype op = [98; 108; 111; 99; 107; 113; 117; 111; 116; 101; 95; 111; 112; 101; 110]
         /\ Forall (map_in sl (b_line st')) seg /\ tmap cl = None
  else fr st st'.
Proof.
  cbv beta delta [r_blockquote]. intros H. lstep H.
  rbind H as pos eqn:LS. rbind H as mx eqn:Ee.
  lstep H. lstep H; [rfinish H; apply fr_refl|].
  rewrite match_some_62 in H.
  lstep H; [|rfinish H; apply fr_refl].
  destruct silent; [rfinish H; apply fr_refl|].
  rbind H as sc eqn:Esc. lstep H.
  rbind H as q eqn:BS. rbind H as sv0 eqn:SL. rbind H as st1 eqn:AB. do 2 lstep H.
  rbind H as [[nl sv] st3] eqn:BL. do 4 lstep H.
  rbind H as st6 eqn:RC. rlet H st7. rlet H st8. rlet H st9.
  rbind H as st10 eqn:RT.
  injection H as <- <-. cbn [andb negb]. intros (Q0 & Q1 & Q2 & Q3 & HTI).
  destruct (bq_lines term T _ _ _ _ _ _ _ _ _ _ _ _ _ _ _ HTI Q0 Q1 Q2 LS BS SL AB BL)
    as (L1 & L2 & L3 & HT3 & (hi & _ & (_ & H1) & (_ & H2) & (_ & H3) & (_ & H4)) & (K31 & K32 & K33 & K34 & K35) & SC3).
  (* the nested block loop: blkIndent is 0, so its first line makes progress *)
  apply (rec_c_step rec R) in RC; [|exact Q0|lia|exact L2|exact HT3|right; exact SC3].
  destruct RC as (C1 & C2 & (seg & ES & FS) & HT6 & C5 & C6).
  rewrite bpush_tokens, <- app_assoc in ES.
  match goal with _ := bpush st6 ?ty ?tag (-1) ?f |- _ =>
    destruct (close_container st3 st6 _ seg ty tag f sl (b_line st6) ES) as (cl & EC & MC) end.
  specialize (MC (fun _ => eq_refl)).
  (* the saved rows go back: they are rows of st, whose source and end marks st6 still has *)
  pose proof H1 as [N1 _]. pose proof H2 as [N2 _]. pose proof H3 as [N3 _]. pose proof H4 as [N4 _].
  apply restore_tables_spec in RT; [|exact Q0|lia..]. destruct RT as (P1 & _ & P3 & _ & (K101 & K102 & K103 & K104 & _) & LM10).
  assert (HT10 : TI st10).
  { unfold TI. rewrite K103, K104.
    apply (TIp_restored (b_src st6) (b_eMarks st6) (b_bMarks st) (b_tShift st) (b_bMarks st6) (b_tShift st6) _ _ sl hi (o_b sv) (o_ts sv));
      [|exact HT6|exact Q0|exact H1|exact H3|exact P1|exact P3].
    rewrite C5, C6. cbn. rewrite K33, K34. exact HTI. }
  assert (W : b_tokens st10 = b_tokens st3 ++ _ :: seg ++ [cl]) by (rewrite K101; exact EC). rewrite K31 in W.
  assert (L10 : b_line st10 = b_line st6) by exact K102.
  unfold step_ok. cbn [b_line b_tokens b_lineMax set]. rewrite L10.
  split; [|eexists _, seg, cl; repeat split; [exact W | reflexivity | reflexivity | exact FS | exact MC]].
  split; [exact LM10|]. split; [cbn in C2; lia|]. split; [exact (gm_container _ _ _ _ _ _ _ W eq_refl ltac:(lia) FS MC)|].
  split; [exact HT10|]. exact (se_trans st st6 st10 (se_trans st st3 st6 (conj K33 K34) (conj C5 C6)) (conj K103 K104)).
Qed.

Lemma r_blockquote_contains rec term (R : rec_c rec) (T : term_fr term) st sl el st' :
  r_blockquote cfg rec term st sl el false = Ok (true, st') -> pre st sl el ->
  exists op seg cl, b_tokens st' = b_tokens st ++ op :: seg ++ [cl]
    /\ tmap op = Some (sl, b_line st') /\ ttype op = [98; 108; 111; 99; 107; 113; 117; 111; 116; 101; 95; 111; 112; 101; 110]
    /\ Forall (map_in sl (b_line st')) seg /\ tmap cl = None.
Proof. intros H P. exact (proj2 (r_blockquote_run rec term R T _ _ _ _ _ _ H P)). Qed.

(* C03, containment in list items: what the item loop appends is a sequence of items, each  list_item_open  with the map
   [a, b) of the lines of the item, the tokens of the item with maps inside [a, b), list_item_close; the items follow each
   other line range by line range *)
Inductive item_seq : Z -> Z -> list token -> Prop :=
| item_one a b op seg cl : tmap op = Some (a, b) -> Forall (map_in a b) seg -> tmap cl = None -> item_seq a b (op :: seg ++ [cl])
| item_more a b c op seg cl rest : tmap op = Some (a, b) -> Forall (map_in a b) seg -> tmap cl = None -> item_seq b c rest ->
    item_seq a c ((op :: seg ++ [cl]) ++ rest).

Lemma item_seq_app a b c x y : item_seq a b x -> item_seq b c y -> item_seq a c (x ++ y).
Proof.
  induction 1 as [a b op seg cl MO FS MC | a b b' op seg cl rest MO FS MC IS IH]; intros Y.
  - apply (item_more a b c); assumption.
  - rewrite <- app_assoc. apply (item_more a b c); [exact MO | exact FS | exact MC | exact (IH Y)].
Qed.

(* the same structure read off the maps alone (markTightParagraphs only touches hidden flags) *)
Definition mp_in (a b : Z) (m : option (Z * Z)) : Prop := match m with Some (x, y) => a <= x /\ x < y /\ y <= b | None => True end.
Inductive mseq : Z -> Z -> list (option (Z * Z)) -> Prop :=
| mseq_one a b ms : Forall (mp_in a b) ms -> mseq a b (Some (a, b) :: ms ++ [None])
| mseq_more a b c ms rest : Forall (mp_in a b) ms -> mseq b c rest -> mseq a c ((Some (a, b) :: ms ++ [None]) ++ rest).

Lemma Forall_map_in_mp a b l : Forall (map_in a b) l -> Forall (mp_in a b) (map tmap l).
Proof. induction 1; cbn [map]; constructor; assumption. Qed.

Lemma item_seq_mseq a b l : item_seq a b l -> mseq a b (map tmap l).
Proof.
  induction 1 as [a b op seg cl MO FS MC | a b c op seg cl rest MO FS MC IS IH].
  - cbn [map]. rewrite map_app. cbn [map]. rewrite MO, MC. apply mseq_one. apply Forall_map_in_mp, FS.
  - rewrite map_app. cbn [map]. rewrite map_app. cbn [map]. rewrite MO, MC. apply mseq_more; [apply Forall_map_in_mp, FS | exact IH].
Qed.

(* the item loop, begun in st on line sl, stands in s on line nl with whole items behind it *)
Definition items_to (st : bstate) (sl nl : Z) (s : bstate) : Prop :=
  sl < nl <= b_lineMax st /\ b_line s = nl /\ b_lineMax s = b_lineMax st /\ TI s /\ se st s
  /\ exists its, b_tokens s = b_tokens st ++ its /\ item_seq sl nl its /\ Forall (map_in sl nl) its.

Lemma items_to_trans st sl m nl s s' : items_to st sl m s -> items_to s m nl s' -> items_to st sl nl s'.
Proof.
  intros (D1 & D2 & D3 & D4 & D5 & its & D6 & D7 & D8) (I1 & I2 & I3 & I4 & I5 & its' & I6 & I7 & I8). rewrite D3 in *.
  split; [lia|]. split; [exact I2|]. split; [exact I3|]. split; [exact I4|]. split; [exact (se_trans _ _ _ D5 I5)|].
  exists (its ++ its'). split; [rewrite I6, D6, app_assoc; reflexivity|].
  split; [exact (item_seq_app _ _ _ _ _ D7 I7)|].
  apply Forall_app. split; [apply (Forall_map_in_weaken _ _ _ _ _ D8) | apply (Forall_map_in_weaken _ _ _ _ _ I8)]; lia.
Qed.

Lemma item_reads_run st sl pam blank indent ots osc ts' sc' :
  item_reads st sl sl pam = Ok (blank, indent, ots, osc, ts', sc') ->
  TI st -> 0 <= sl -> sl < b_lineMax st -> (forall ls, line_start st sl = Ok ls -> ls < pam) ->
  0 <= ots /\ forall isOrd mc start, TI (item_st2 st isOrd mc sl start pam indent ts' sc') /\ first_ok (item_st2 st isOrd mc sl start pam indent ts' sc') sl.
Proof.
  unfold item_reads. intros H HT S0 S1 PM.
  rbind H as mx0 eqn:Ee. rbind H as scn eqn:Esc. rbind H as ls eqn:LS. lstep H. rbind H as [cs0 offset] eqn:LB.
  rbind H as ots0 eqn:Ets. lstep H. rbind H as bms eqn:Ebm. rbind H as ts0 eqn:S1'. rbind H as sc0 eqn:S2'.
  injection H as _ <- <- <- <- <-.
  apply list_blanks_mono in LB. specialize (PM ls eq_refl).
  unfold line_start in LS. rewrite Ebm, Ets in LS. injection LS as <-.
  destruct (HT sl bms mx0 ots0 S0 Ebm Ee Ets) as (G1 & G2 & _).
  destruct (tb_set_spec _ _ _ _ S1' S0) as (TS1 & _). destruct (tb_set_spec _ _ _ _ S2' S0) as (SC1 & _).
  split; [exact G2|]. intros isOrd mc start. split; [exact (TIp_set_ts _ _ _ _ _ _ _ HT S0 S1' ltac:(lia))|].
  destruct (mx0 <=? cs0) eqn:MC.
  - left. exists cs0, mx0. unfold line_start. cbn. rewrite Ebm, TS1. cbn [bind]. split; [f_equal; lia|]. split; [exact Ee|]. split; lia.
  - (* the content is indented by at most what the marker and the blanks after it take *)
    right. intros s0 E0. cbn in E0 |- *. rewrite SC1 in E0. injection E0 as <-.
    destruct (4 <? offset - (scn + pam - (bms + ots0))) eqn:X; lia.
Qed.

Lemma item_body_run rec (R : rec_c rec) st2 sl el blank st3 :
  item_body rec st2 sl el blank = Ok st3 ->
  0 <= sl -> sl < el -> el <= b_lineMax st2 -> b_line st2 = sl -> TI st2 -> first_ok st2 sl -> step_ok st2 sl st3.
Proof.
  unfold item_body. intros H S0 S1 S2 BL HT FO. rstep H. destruct x; [|exact (rec_c_step rec R _ _ _ _ H S0 S1 S2 HT FO)].
  injection H as <-. split; [reflexivity|]. split; [cbn; lia|]. split; [apply gm_nil; reflexivity|]. split; [exact HT | split; reflexivity].
Qed.

Lemma item_back_run st3 sl ots osc pee ts'' sc'' :
  item_back st3 sl ots osc = Ok (pee, ts'', sc'') -> TI st3 -> 0 <= sl -> 0 <= ots -> TIp (b_src st3) (b_bMarks st3) (b_eMarks st3) ts''.
Proof.
  unfold item_back. intros H HT S0 G. rstep H. rbind H as t eqn:S3'. rstep H. injection H as _ <- _.
  exact (TIp_set_ts _ _ _ _ _ _ _ HT S0 S3' G).
Qed.

Lemma item_closed st isOrd mc sl start pam indent ts' sc' st3 ts'' sc'' s :
  step_ok (item_st2 st isOrd mc sl start pam indent ts' sc') sl st3 -> TIp (b_src st3) (b_bMarks st3) (b_eMarks st3) ts'' ->
  fr (item_st6 st st3 mc sl ts'' sc'') s -> items_to st sl (b_line st3) s.
Proof.
  intros (B32 & B31 & (seg3 & E3 & F3) & _ & SE3) HT6 F. unfold items_to.
  rewrite (fr_line _ _ F), (fr_lineMax _ _ F), (fr_tokens _ _ F).
  split; [exact B31|]. split; [reflexivity|]. split; [exact B32|]. split; [exact (fr_TI _ _ F HT6)|].
  split; [exact (se_trans st (item_st6 st st3 mc sl ts'' sc'') s SE3 (fr_se _ _ F))|].
  unfold item_st6. cbv zeta.
  match goal with |- context [bpush ?s4 s_list_item_close s_li (-1) ?f] =>
    eassert (E4 : b_tokens s4 = b_tokens st ++ _ :: seg3) by (etransitivity; [exact E3 | symmetry; apply (app_assoc (b_tokens st) [_])]);
    destruct (close_container st s4 _ seg3 s_list_item_close s_li f sl (b_line st3) E4) as (cl & EC & MC) end.
  eexists. split; [exact EC|]. specialize (MC (fun _ => eq_refl)).
  split; [apply item_one | apply map_in_container]; try assumption; try reflexivity; lia.
Qed.

Lemma item_next_run term (T : term_fr term) st6 isOrd mc nl el start nx st7 :
  item_next cfg term st6 isOrd mc nl el start = Ok (nx, st7) ->
  fr st6 st7 /\ forall pam' start', nx = Some (pam', start') -> nl < el /\ forall ls, line_start st7 nl = Ok ls -> ls < pam'.
Proof.
  unfold item_next. intros H.
  match goal with |- ?G => assert (STOP : forall s, fr st6 s -> Ok (@None (Z * Z), s) = Ok (nx, st7) -> G)
    by (intros s F E; injection E as <- <-; split; [exact F | discriminate]) end.
  destruct (el <=? nl) eqn:EN; [exact (STOP _ (fr_refl _) H)|]. rstep H. rstep H; [exact (STOP _ (fr_refl _) H)|]. rstep H. rstep H; [exact (STOP _ (fr_refl _) H)|].
  rbind H as [t s7] eqn:TE.
  pose proof (T nm_list _ _ _ _ _ ltac:(discriminate) TE) as F7.
  destruct t; [exact (STOP _ F7 H)|].
  rbind H as pam' eqn:SK.
  destruct (pam' <? 0) eqn:PN; [exact (STOP _ F7 H)|].
  rstep H. rbind H as c eqn:EC. injection H as <- <-. split; [exact F7|]. intros p q E.
  destruct (negb (c =? mc)); [discriminate E|]. injection E as <- <-. split; [lia|]. intros ls LS.
  destruct isOrd; [destruct (skip_ordered_gt _ _ _ _ SK LS) | destruct (skip_bullet_gt _ _ _ _ SK LS)]; lia.
Qed.

Lemma list_items_run rec term (R : rec_c rec) (T : term_fr term) : forall fuel st isOrd mc sl el pam start tight pee nl tight' st',
  list_items cfg fuel rec term st isOrd mc sl sl el pam start tight pee = Ok (nl, tight', st') ->
  0 <= sl -> sl < el -> el <= b_lineMax st -> TI st -> b_line st = sl ->
  (forall ls, line_start st sl = Ok ls -> ls < pam) -> items_to st sl nl st'.
Proof.
  induction fuel as [|f IH]; intros st isOrd mc sl el pam start tight pee nl tight' st' H S0 S1 S2 HT BL PM; [discriminate H|].
  rewrite list_items_S in H.
  assert (NE : negb (sl <? el) = false) by lia. rewrite NE in H.
  rbind H as [[[[[blank indent] ots] osc] ts'] sc'] eqn:RD.
  destruct (item_reads_run _ _ _ _ _ _ _ _ _ RD HT S0 ltac:(lia) PM) as [G2 ST2]. destruct (ST2 isOrd mc start) as [HT2 FO].
  rbind H as st3 eqn:BODY.
  apply (item_body_run rec R) in BODY; [|exact S0|exact S1|exact S2|exact BL|exact HT2|exact FO].
  rbind H as [[pee' ts''] sc''] eqn:BK. lstep H.
  rbind H as [nx st7] eqn:NX.
  destruct (item_next_run term T _ _ _ _ _ _ _ _ NX) as [F7 PM'].
  pose proof (item_closed _ _ _ _ _ _ _ _ _ _ _ sc'' _ BODY (item_back_run _ _ _ _ _ _ _ BK (proj1 (proj2 (proj2 (proj2 BODY)))) S0 G2) F7) as D.
  cbv zeta in H. destruct nx as [[pam' start']|]; [|injection H as <- <- <-; exact D].
  destruct (PM' _ _ eq_refl) as [EN PM2]. destruct D as (D1 & D2 & D3 & D4 & D5 & DT).
  apply (items_to_trans st sl (b_line st3) nl st7); [exact (conj D1 (conj D2 (conj D3 (conj D4 (conj D5 DT)))))|].
  apply IH in H; try lia; assumption.
Qed.

Lemma list_done st sl nl s its lo its' lc :
  b_lineMax s = b_lineMax st -> sl < nl <= b_lineMax st -> b_line s = nl -> TI s -> se st s ->
  item_seq sl nl its -> Forall (map_in sl nl) its ->
  b_tokens s = b_tokens st ++ lo :: its' ++ [lc] -> tmap lo = Some (sl, nl) -> map tmap its' = map tmap its -> tmap lc = None ->
  step_ok st sl s /\
  exists lo its lc, b_tokens s = b_tokens st ++ lo :: its ++ [lc]
    /\ tmap lo = Some (sl, b_line s) /\ tmap lc = None /\ mseq sl (b_line s) (map tmap its).
Proof.
  intros LM B L HT SE IS FI E ML MI MC. rewrite L. split.
  - split; [exact LM|]. rewrite L. split; [exact B|]. split; [|exact (conj HT SE)].
    apply (gm_container _ _ _ _ _ _ _ E ML); [lia | | exact MC]. exact (Forall_map_in_tmap _ _ its its' (eq_sym MI) FI).
  - exists lo, its', lc. rewrite MI. repeat split; [exact E | exact ML | exact MC | apply item_seq_mseq, IS].
Qed.

Lemma list_head_run st sl silent isOrd pam mv mc start :
  list_head cfg st sl silent = Ok (Some (isOrd, pam, mv, mc, start)) -> line_start st sl = Ok start /\ start < pam.
Proof.
  unfold list_head. intros H. rstep H. rstep H; [discriminate H|]. rstep H. rstep H; [discriminate H|].
  rbind H as pamo eqn:SO. rbind H as start0 eqn:LS. rbind H as sel eqn:SEL.
  destruct sel as [[[o p] v]|]; [|discriminate H]. rstep H. rstep H; [discriminate H|]. rstep H. injection H as <- <- <- <- <-.
  split; [reflexivity|]. destruct (0 <=? pamo) eqn:P0.
  - rstep SEL; [discriminate SEL|]. injection SEL as <- <- <-. destruct (skip_ordered_gt _ _ _ _ SO LS); lia.
  - rbind SEL as pamb eqn:SB. destruct (0 <=? pamb) eqn:P1; [|discriminate SEL]. injection SEL as <- <- <-.
    destruct (skip_bullet_gt _ _ _ _ SB LS); lia.
Qed.

(* C03, containment in lists: the list token's own map is the line range the rule consumed; between the list tokens the maps
   are those of a sequence of items, each item's tokens inside the item's own map, all inside the list's *)
Lemma r_list_run rec term (R : rec_c rec) (T : term_fr term) st sl el silent b st' :
  r_list cfg rec term st sl el silent = Ok (b, st') ->
  if b && negb silent
  then pre st sl el -> step_ok st sl st' /\
       exists lo its lc, b_tokens st' = b_tokens st ++ lo :: its ++ [lc]
         /\ tmap lo = Some (sl, b_line st') /\ tmap lc = None /\ mseq sl (b_line st') (map tmap its)
  else fr st st'.
Proof.
  rewrite r_list_eq. intros H.
  rbind H as h eqn:HD. destruct h as [[[[[isOrd pam] mv] mc] start]|]; [|rfinish H; apply fr_refl].
  destruct silent; [rfinish H; apply fr_refl|].
  destruct (list_head_run _ _ _ _ _ _ _ _ HD) as [LS PM].
  destruct (list_st1_push st isOrd mc mv sl) as (ty & tag & f & E1). rewrite E1 in H.
  rbind H as [[nl tight] st3] eqn:LI.
  injection H as <- <-. unfold andb, negb. intros (Q0 & Q1 & Q2 & Q3 & HTI).
  apply (list_items_run rec term R T) in LI; [|exact Q0|exact Q1|exact Q2|exact HTI|exact Q3|].
  2: { intros ls LS'. change (line_start st sl = Ok ls) in LS'. congruence. }
  destruct LI as (I1 & I2 & I3 & I4 & I5 & its & ES & IS & FI).
  cbn [b_tokens st_parent set] in ES. rewrite bpush_tokens, <- app_assoc in ES.
  (* closing the list: all that matters of st5 from here on *)
  match goal with |- context [list_st5 st st3 isOrd mc sl nl ?p] =>
    destruct (list_st5_push st st3 isOrd mc sl nl p) as (ty' & tag' & f' & MF & E5); set (st5 := list_st5 st st3 isOrd mc sl nl p) in * end.
  destruct (close_container st st3 _ its ty' tag' f' sl nl ES) as (lc & EC & MLC). specialize (MLC MF).
  assert (T5 : b_tokens st5 = b_tokens st ++ set_map (f (set_level (set_block (new_token ty tag 1) true) (b_level st))) (Some (sl, nl)) :: its ++ [lc])
    by (rewrite E5; exact EC).
  assert (LM5 : b_lineMax st5 = b_lineMax st) by (rewrite E5; exact I3).
  assert (L5 : b_line st5 = nl) by (rewrite E5; reflexivity).
  assert (SE5 : se st st5) by (rewrite E5; exact I5).
  assert (HT5 : TI st5) by (rewrite E5; exact I4).
  change (sl < nl <= b_lineMax st) in I1.
  clearbody st5. clear E5. unfold list_st6.
  destruct tight.
  - (* tight: hidden flags change, maps and the first tokens do not *)
    pose proof (mark_tight_mapeq (length (b_tokens st)) (S (length (b_tokens st5))) (b_tokens st5) (Z.of_nat (length (b_tokens st)) + 2)
                  (len (b_tokens st5) - 2) (b_level st5 + 2) ltac:(lia) ltac:(lia)) as ME.
    rewrite T5 in ME at 1. apply mapeq_container in ME. destruct ME as (lo' & its' & lc' & EX & ML & MI & MC).
    apply (list_done st sl nl _ its lo' its' lc'); try assumption; congruence.
  - eapply (list_done st sl nl _ its _ its lc); try eassumption; reflexivity.
Qed.

Lemma r_list_contains rec term (R : rec_c rec) (T : term_fr term) st sl el st' :
  r_list cfg rec term st sl el false = Ok (true, st') -> pre st sl el ->
  exists lo its lc, b_tokens st' = b_tokens st ++ lo :: its ++ [lc]
    /\ tmap lo = Some (sl, b_line st') /\ tmap lc = None /\ mseq sl (b_line st') (map tmap its).
Proof. intros H P. exact (proj2 (r_list_run rec term R T _ _ _ _ _ _ H P)). Qed.

(* the rules that may be called silently: code, lheading and paragraph have no silent mode (and
   no "alt" entry in the rule table, so the Ruler never puts them into a terminator chain) *)
Definition silent_capable (n : str) : Prop :=
  str_eqb n nm_code = false /\ str_eqb n nm_lheading = false /\ str_eqb n nm_paragraph = false.
Definition silent_terms : Prop := forall ch n, ch <> [] -> In n (c_term cfg ch) -> silent_capable n.

Lemma run_rule_c st sl el silent b st' (P : Prop) :
  (if b && negb silent then pre st sl el -> step_ok st sl st' /\ P else fr st st') -> rule_c st sl el silent b st'.
Proof. unfold rule_c. destruct (b && negb silent); [intros H Q; exact (proj1 (H Q)) | exact (fun H => H)]. Qed.

Lemma apply_rule_c rec term (R : rec_c rec) (T : term_fr term) n st sl el silent b st' :
  apply_rule cfg rf cf rec term n st sl el silent = Ok (b, st') ->
  (silent = true -> silent_capable n) ->
  rule_c st sl el silent b st' /\ (str_eqb n nm_paragraph = true -> silent = false -> b = true).
Proof.
  intros H SC. split.
  - revert b st' H. apply apply_rule_cases; try (intros -> b st' H).
    + eapply r_table_c; eassumption.
    + destruct silent; [destruct (SC eq_refl) as (X & _); discriminate X | exact (leaf_rule_c _ _ _ _ _ _ (r_code_leaf cfg _ _ _ _ _ H))].
    + exact (leaf_rule_c _ _ _ _ _ _ (r_fence_leaf cfg _ _ _ _ _ _ H)).
    + eapply run_rule_c, r_blockquote_run; eassumption.
    + exact (leaf_rule_c _ _ _ _ _ _ (r_hr_leaf cfg _ _ _ _ _ _ H)).
    + eapply run_rule_c, r_list_run; eassumption.
    + eapply r_reference_c; eassumption.
    + exact (leaf_rule_c _ _ _ _ _ _ (r_html_block_leaf cfg _ _ _ _ _ _ H)).
    + exact (leaf_rule_c _ _ _ _ _ _ (r_heading_leaf cfg _ _ _ _ _ _ H)).
    + destruct silent; [destruct (SC eq_refl) as (_ & X & _); discriminate X | eapply r_lheading_c; eassumption].
    + destruct silent; [destruct (SC eq_refl) as (_ & _ & X); discriminate X|]. destruct (r_paragraph_c term T _ _ _ _ _ H) as [-> P]. exact P.
    + intros b st' H. rfinish H. apply rule_c_fail, fr_refl.
  - (* the paragraph rule is the last one dispatched on and always succeeds *)
    intros NP ->. apply str_eqb_eq in NP. subst n. exact (proj1 (r_paragraph_c term T st sl el b st' H)).
Qed.

Lemma no_rec_c : rec_c no_rec.
Proof. intros st a b st' H. discriminate H. Qed.
Lemma no_term_fr : term_fr no_term.
Proof. intros ch s a b r s' _ H. discriminate H. Qed.

Lemma run_chain_fr : forall names st l el b st', (forall n, In n names -> silent_capable n) ->
  run_chain cfg rf cf names st l el = Ok (b, st') -> fr st st'.
Proof.
  induction names as [|n names IH]; intros st l el b st' SC H; cbn [run_chain] in H; [rfinish H; apply fr_refl|].
  rbind H as [r s1] eqn:AR.
  destruct (apply_rule_c no_rec no_term no_rec_c no_term_fr _ _ _ _ _ _ _ AR (fun _ => SC n (or_introl eq_refl))) as [C _].
  unfold rule_c in C. rewrite Bool.andb_false_r in C.
  destruct r; [rfinish H; exact C|]. eapply fr_trans; [exact C|]. eapply IH; [|exact H]. intros m Hm. apply SC. right. exact Hm.
Qed.

Lemma terminated_fr (ST : silent_terms) : term_fr (terminated cfg rf cf).
Proof. intros ch s a b r s' CN H. unfold terminated in H. eapply run_chain_fr; [|exact H]. intros n Hn. exact (ST ch n CN Hn). Qed.

Lemma pre_fr st st1 sl el : fr st st1 -> pre st sl el -> pre st1 sl el.
Proof.
  intros F (P0 & P1 & P2 & P3 & HT). split; [exact P0|]. split; [exact P1|].
  split; [rewrite (fr_lineMax _ _ F); exact P2|]. split; [rewrite (fr_line _ _ F); exact P3|].
  exact (fr_TI _ _ F HT).
Qed.

Lemma step_ok_fr st st1 sl st' : fr st st1 -> step_ok st1 sl st' -> step_ok st sl st'.
Proof.
  intros F (A & B & C & D & E). rewrite (fr_lineMax _ _ F) in *.
  split; [exact A|]. split; [exact B|]. split; [eapply gm_same_tokens_l; [exact C | symmetry; apply fr_tokens, F]|].
  split; [exact D|]. exact (se_trans _ _ _ (fr_se _ _ F) E).
Qed.

Lemma try_rules_m rec (R : rec_c rec) (ST : silent_terms) : forall names st sl el st',
  try_rules cfg rf cf rec names st sl el = Ok st' -> pre st sl el -> mem_str nm_paragraph names = true ->
  step_ok st sl st'.
Proof.
  induction names as [|n names IH]; intros st sl el st' H P M; [discriminate M|].
  cbn [try_rules] in H.
  rbind H as [r s1] eqn:AR.
  destruct (apply_rule_c rec _ R (terminated_fr ST) _ _ _ _ _ _ _ AR ltac:(discriminate)) as [C PB].
  destruct r.
  - rfinish H. unfold rule_c in C. cbn [andb negb] in C. exact (C P).
  - unfold rule_c in C. cbn [andb] in C.
    cbn [mem_str existsb] in M. destruct (str_eqb nm_paragraph n) eqn:E.
    + apply str_eqb_eq in E. subst n. specialize (PB (str_eqb_refl _) eq_refl). discriminate PB.
    + cbn [orb] in M. eapply step_ok_fr; [exact C|]. eapply IH; [exact H | eapply pre_fr; eassumption | exact M].
Qed.

Lemma skip_empty_spec : forall fuel st a, a <= skip_empty_lines fuel st a
  /\ (a <= b_lineMax st -> skip_empty_lines fuel st a <= b_lineMax st).
Proof.
  induction fuel as [|f IH]; intros st a; cbn [skip_empty_lines]; [lia|].
  destruct (negb (a <? b_lineMax st)) eqn:E; [lia|].
  destruct (IH st (a + 1)) as [A B].
  destruct (is_empty st a) as [[|]|?|]; lia.
Qed.

Lemma skip_empty_progress fuel st a p e : line_start st a = Ok p -> tb (b_eMarks st) a = Ok e -> e <= p -> a < b_lineMax st ->
  a < skip_empty_lines (S fuel) st a.
Proof.
  intros L E Le Lt. cbn [skip_empty_lines]. assert (X : negb (a <? b_lineMax st) = false) by lia. rewrite X.
  unfold is_empty. rewrite L, E. cbn [bind]. assert (Y : (e <=? p) = true) by lia. rewrite Y.
  destruct (skip_empty_spec fuel st (a + 1)) as [A _]. lia.
Qed.

Lemma tok_head_run st line el l go : tok_head cfg st line el = Ok (l, go) -> line < el -> line <= b_lineMax st -> el <= b_lineMax st ->
  line <= l <= b_lineMax st
  /\ (l = skip_empty_lines (S (Z.to_nat (b_lineMax st))) st line \/ go = false /\ c_maxNesting cfg <= b_level st)
  /\ if go then l < el /\ b_level st < c_maxNesting cfg /\ exists sc, tb (b_sCount st) l = Ok sc /\ b_blkIndent st <= sc
     else (first_ok st line -> line < l) /\ (el <= l \/ exists sc, tb (b_sCount st) l = Ok sc /\ sc < b_blkIndent st).
Proof.
  unfold tok_head. intros H NE L1 L2.
  set (line1 := skip_empty_lines (S (Z.to_nat (b_lineMax st))) st line) in *.
  destruct (skip_empty_spec (S (Z.to_nat (b_lineMax st))) st line) as [E1 E2]. specialize (E2 L1). fold line1 in E1, E2.
  destruct (el <=? line1) eqn:EL; [injection H as <- <-; split; [lia|]; split; [left; reflexivity|]; split; [lia | left; lia]|].
  rbind H as sc eqn:Esc.
  destruct (sc <? b_blkIndent st) eqn:SB.
  { injection H as <- <-. split; [lia|]. split; [left; reflexivity|]. split; [|right; exists sc; split; [exact Esc | lia]].
    intros [(p & e & A & B & C & D)|F]; [unfold line1; eapply skip_empty_progress; eassumption|].
    destruct (Z.eq_dec line1 line) as [X|X]; [|lia]. rewrite X in Esc. specialize (F _ Esc). lia. }
  destruct (c_maxNesting cfg <=? b_level st) eqn:MN; injection H as <- <-.
  - split; [lia|]. split; [right; split; [reflexivity | lia]|]. split; [lia | left; lia].
  - split; [lia|]. split; [left; reflexivity|]. split; [lia|]. split; [lia|]. exists sc. split; [exact Esc | lia].
Qed.

Lemma tok_round_m rec (R : rec_c rec) (ST : silent_terms) (PA : mem_str nm_paragraph (c_rules cfg) = true) st line el l :
  tok_head cfg st line el = Ok (l, true) -> line < el -> 0 <= line -> line <= b_lineMax st -> el <= b_lineMax st -> TI st ->
  pre (st_line st l) l el
  /\ forall st2, try_rules cfg rf cf rec (c_rules cfg) (st_line st l) l el = Ok st2 ->
      step_ok (st_line st l) l st2
      /\ forall hel l' hel', tok_next st2 el hel = Ok (l', hel') -> b_line st2 <= l' <= b_lineMax st.
Proof.
  intros HD NE L0 L1 L2 HT. destruct (tok_head_run _ _ _ _ _ HD NE L1 L2) as (B & _ & G & _).
  assert (P : pre (st_line st l) l el) by (split; [lia|]; split; [exact G|]; split; [exact L2|]; split; [reflexivity | exact HT]).
  split; [exact P|]. intros st2 TR. pose proof (try_rules_m rec R ST _ _ _ _ _ TR P PA) as S. split; [exact S|].
  destruct S as (A1 & A2 & _). cbn [b_lineMax st_line set] in A1, A2.
  intros hel l' hel' NX. destruct (tok_next_inv _ _ _ _ _ NX) as [->|(-> & X & _)]; lia.
Qed.

(* What one call of the line loop appends: one segment per successful rule call, over line ranges that increase.
   [Q lo hi seg] is any predicate closed under the two ways such a sequence is built; MapOrder.oseg is the least one,
   "all maps inside [lo, hi)" another. *)
Lemma tok_loop_segs (Q : Z -> Z -> list token -> Prop)
    (Qnil : forall lo hi, lo <= hi -> Q lo hi [])
    (Qcons : forall lo hi a b seg rest, lo <= a -> a < b -> Forall (map_in a b) seg -> Q b hi rest -> Q lo hi (seg ++ rest))
    (Qlo : forall lo lo' hi seg, lo' <= lo -> Q lo hi seg -> Q lo' hi seg)
    rec (R : rec_c rec) (ST : silent_terms) (PA : mem_str nm_paragraph (c_rules cfg) = true) :
  forall fuel st line el hel st',
  tok_loop cfg rf cf fuel rec st line el hel = Ok st' ->
  0 <= line -> line <= b_lineMax st -> el <= b_lineMax st -> TI st -> (line < el \/ b_line st = line) ->
  b_lineMax st' = b_lineMax st /\ TI st' /\ se st st' /\ line <= b_line st' <= b_lineMax st
  /\ (exists seg, b_tokens st' = b_tokens st ++ seg /\ Q line (b_line st') seg)
  /\ (line < el -> first_ok st line -> line < b_line st').
Proof.
  induction fuel as [|f IH]; intros st line el hel st' H L0 L1 L2 HT LB; [discriminate H|].
  rewrite tok_loop_round in H.
  (* the loop stops on line l without a rule call *)
  match goal with |- ?G => assert (STOP : forall l, Ok (st_line st l) = Ok st' -> line <= l <= b_lineMax st ->
                                           (line < el -> first_ok st line -> line < l) -> G) end.
  { intros l E B FO. injection E as <-. split; [reflexivity|]. split; [exact HT|]. split; [split; reflexivity|]. split; [exact B|]. split; [|exact FO].
    exists []. rewrite app_nil_r. split; [reflexivity | apply Qnil, B]. }
  destruct (negb (line <? el)) eqn:NE.
  { apply (STOP (b_line st)); [destruct st; exact H | destruct LB; lia | lia]. }
  rbind H as [l go] eqn:HD.
  destruct (tok_head_run _ _ _ _ _ HD ltac:(lia) L1 L2) as (B & _ & G).
  destruct go; [|apply (STOP l H B); intros _; exact (proj1 G)].
  rbind H as st2 eqn:TR.
  destruct (proj2 (tok_round_m rec R ST PA _ _ _ _ HD ltac:(lia) L0 L1 L2 HT) _ TR) as ((A1 & A2 & (sg & ES & FS) & A4 & A5) & NXT).
  cbn [b_lineMax b_tokens st_line set] in A1, A2, ES.
  rbind H as [l' hel'] eqn:NX. pose proof (NXT _ _ _ NX) as Bl.
  (* the loop goes on from a state with st2's tokens, tables and bounds, at the rule's last line or one past it *)
  apply IH in H; [|lia|cbn; lia|cbn; lia|exact A4|right; reflexivity].
  destruct H as (I1 & I2 & (I31 & I32) & I4 & (seg & I5 & I6) & _). cbn in I1, I4, I5, I31, I32.
  split; [lia|]. split; [exact I2|]. split; [exact (se_trans _ _ _ A5 (conj I31 I32))|]. split; [lia|]. split; [|lia].
  exists (sg ++ seg). split; [rewrite I5, ES, app_assoc; reflexivity|].
  apply (Qcons line _ l (b_line st2)); [lia | lia | exact FS|].
  apply (Qlo l'); [lia | exact I6].
Qed.

Lemma tok_loop_m rec (R : rec_c rec) (ST : silent_terms) (PA : mem_str nm_paragraph (c_rules cfg) = true) :
  forall fuel st line el hel st',
  tok_loop cfg rf cf fuel rec st line el hel = Ok st' ->
  0 <= line -> line <= b_lineMax st -> el <= b_lineMax st -> TI st -> (line < el \/ b_line st = line) ->
  b_lineMax st' = b_lineMax st /\ TI st' /\ se st st' /\ line <= b_line st' <= b_lineMax st
  /\ gm line (b_line st') st st' /\ (line < el -> first_ok st line -> line < b_line st').
Proof.
  intros fuel st line el hel st' H L0 L1 L2 HT LB.
  apply (tok_loop_segs (fun lo hi seg => lo <= hi /\ Forall (map_in lo hi) seg)) in H; try assumption.
  - destruct H as (I1 & I2 & I3 & I4 & (seg & I5 & _ & I6) & I7). repeat (split; [assumption|]). split; [exists seg; split; assumption | exact I7].
  - intros lo hi L. split; [exact L | constructor].
  - intros lo hi a b seg rest La Lb F [Lh F']. split; [lia|].
    apply Forall_app. split; [apply (Forall_map_in_weaken _ _ _ _ _ F) | apply (Forall_map_in_weaken _ _ _ _ _ F')]; lia.
  - intros lo lo' hi seg L [Lh F]. split; [lia | apply (Forall_map_in_weaken _ _ _ _ _ F); lia].
Qed.

(* the line loop runs at most once per line: its fuel never decides the result *)
Lemma tok_loop_fuel rec (R : rec_c rec) (ST : silent_terms) (PA : mem_str nm_paragraph (c_rules cfg) = true) :
  forall f1 f2 st line el hel st',
  tok_loop cfg rf cf f1 rec st line el hel = Ok st' ->
  0 <= line -> line <= b_lineMax st -> el <= b_lineMax st -> TI st ->
  (Z.to_nat (el - line) < f2)%nat ->
  tok_loop cfg rf cf f2 rec st line el hel = Ok st'.
Proof.
  induction f1 as [|f1 IH]; intros f2 st line el hel st' H L0 L1 L2 HT FB; [discriminate H|].
  destruct f2 as [|f2]; [lia|].
  rewrite tok_loop_round in H |- *.
  destruct (negb (line <? el)) eqn:NE; [exact H|].
  destruct (tok_head cfg st line el) as [[l go]|?|] eqn:HD; cbn [bind] in H |- *; try discriminate H.
  destruct (tok_head_run _ _ _ _ _ HD ltac:(lia) L1 L2) as (B & _ & G).
  destruct go; [|exact H].
  destruct (try_rules cfg rf cf rec (c_rules cfg) (st_line st l) l el) as [st2|?|] eqn:TR; cbn [bind] in H |- *; try discriminate H.
  destruct (proj2 (tok_round_m rec R ST PA _ _ _ _ HD ltac:(lia) L0 L1 L2 HT) _ TR) as ((A1 & A2 & A3 & A4 & A5) & NXT).
  cbn [b_lineMax st_line set] in A1, A2.
  destruct (tok_next st2 el hel) as [[l' hel']|?|] eqn:NX; cbn [bind] in H |- *; try discriminate H. pose proof (NXT _ _ _ NX) as Bl.
  eapply IH; [exact H | lia | cbn; lia | cbn; lia | exact A4 | lia].
Qed.

Lemma tokenize_rec_c (ST : silent_terms) (PA : mem_str nm_paragraph (c_rules cfg) = true) :
  forall d, rec_c (tokenize cfg rf cf d).
Proof.
  induction d as [|d IH]; intros st a b st' H A0 AB BL HT; [discriminate H|].
  cbn [tokenize] in H.
  apply (tok_loop_m _ IH ST PA) in H; try lia; try assumption.
  destruct H as (I1 & I2 & (I31 & I32) & I4 & I5 & I6).
  split; [exact I1|]. split; [exact I4|]. split; [exact I5|]. split; [exact I2|]. split; [exact I31|]. split; [exact I32|].
  intros FO. exact (I6 AB FO).
Qed.

(* ParserBlock.parse is one call of the line loop over all lines of a fresh state (none, for the empty source) *)
Lemma block_parse_loop src env toks st' : block_parse cfg rf cf src env toks = Ok st' ->
  exists fuel d, tok_loop cfg rf cf fuel (tokenize cfg rf cf d) (state_init src env toks) 0 (b_lineMax (state_init src env toks)) false = Ok st'.
Proof.
  unfold block_parse. destruct src as [|c src0]; intros H; [injection H as <-; exists 1%nat, O; reflexivity|].
  exists (S (S (Z.to_nat (b_lineMax (state_init (c :: src0) env toks) - 0)))), (S (Z.to_nat (c_maxNesting cfg))). exact H.
Qed.

(* C03 for ParserBlock.parse: every appended token has no map or a non-empty one inside [0, lineMax);
   the cursor ends within the line table *)
Theorem block_parse_maps (ST : silent_terms) (PA : mem_str nm_paragraph (c_rules cfg) = true) src env toks st' :
  block_parse cfg rf cf src env toks = Ok st' ->
  let n := b_lineMax (state_init src env toks) in
  b_lineMax st' = n /\ 0 <= b_line st' <= n
  /\ exists seg, b_tokens st' = toks ++ seg /\ Forall (map_in 0 n) seg.
Proof.
  intros H. cbv zeta. apply block_parse_loop in H. destruct H as (fuel & d & H).
  destruct (state_init_tables src env toks) as (_ & _ & _ & _ & _ & LM & _). cbv zeta in LM.
  apply (tok_loop_m _ (tokenize_rec_c ST PA d) ST PA) in H; [|lia|lia|lia|apply state_init_TI|right; reflexivity].
  destruct H as (I1 & _ & _ & I4 & (seg & ES & FS) & _).
  split; [exact I1|]. split; [exact I4|]. exists seg. split; [exact ES|]. exact (Forall_map_in_weaken _ _ _ _ _ FS (Z.le_refl 0) (proj2 I4)).
Qed.

End Parser.

(* a configuration taken from a Ruler: a rule is in a named terminator chain only if the chain is in
   its alt list; code, lheading and paragraph have empty alt lists in the rule table *)
From MD Require Import Model.Ruler.
Definition no_silent_mode (n : str) : bool := str_eqb n nm_code || str_eqb n nm_lheading || str_eqb n nm_paragraph.
Definition alts_ok (rs : list (@rule str)) : bool :=
  forallb (fun r => if no_silent_mode (rfn r) then match ralt r with [] => true | _ => false end else true) rs.

(* a rule with an empty alt list is in no named chain: a property of names that forces the alt list to be empty holds
   of no member of a terminator chain *)
Lemma compiled_alt (p : str -> bool) (rs : list (@rule str)) :
  forallb (fun r => if p (rfn r) then match ralt r with [] => true | _ => false end else true) rs = true ->
  forall ch n, ch <> [] -> In n (compile_chain rs ch) -> p n = false.
Proof.
  intros A ch n CN H. unfold compile_chain in H. apply in_map_iff in H.
  destruct H as (r & <- & I). apply filter_In in I. destruct I as [I C].
  apply Bool.andb_true_iff in C. destruct C as [_ C].
  rewrite forallb_forall in A. specialize (A r I).
  unfold in_chain in C. destruct ch as [|c0 ch]; [contradiction CN; reflexivity|].
  destruct (p (rfn r)); [destruct (ralt r); [discriminate C | discriminate A] | reflexivity].
Qed.

Theorem ruler_cfg_silent_terms (rs : list (@rule str)) code mn html defs :
  alts_ok rs = true -> silent_terms (mkBCfg (compile_chain rs []) (compile_chain rs) code mn html defs).
Proof.
  intros A ch n CN H. pose proof (compiled_alt no_silent_mode rs A ch n CN H) as E. unfold no_silent_mode in E.
  apply Bool.orb_false_iff in E. destruct E as [E E3]. apply Bool.orb_false_iff in E. destruct E as [E1 E2]. repeat split; assumption.
Qed.
