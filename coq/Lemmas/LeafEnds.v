(* C03: leaf blocks end on a non-blank line.  The paragraph rule stops its line scan at the first blank line, the
   indented-code rule remembers the line after the last code line: the map [sl, e) they give their tokens has a
   non-blank line e - 1 (given that the rule is called on a non-blank line, which the line loop guarantees:
   Lemmas/Cover.v).  Thematic breaks and ATX headings have one-line maps (r_hr_spec, Lemmas/BlockLemmas.v; r_heading_markup,
   Lemmas/Verbatim.v). *)
From RecordUpdate Require Import RecordUpdate.
From MD Require Import Base.Py Model.Token Model.StateBlock Model.Block Lemmas.BlockLemmas Lemmas.MapWhole.
From Coq Require Import ZifyBool.

Section Ends.
Context (cfg : bcfg).

(* the paragraph-like line scan passes non-blank lines only; an underline that stops it is a non-blank line before the end *)
Lemma para_scan_lines term (T : term_fr term) chain (CN : chain <> []) fuel st nl el cu r u st' :
  para_scan fuel term chain st nl el cu = Ok (r, u, st') ->
  nl <= r /\ (forall l, nl <= l < r -> is_empty st l = Ok false) /\ (u <> None -> r < el /\ is_empty st r = Ok false).
Proof.
  intros H. apply para_scan_scanned in H. remember (r, u, st') as res eqn:E. revert r u st' E.
  induction H as [| |st nl m l ? IE| |st nl st1 res ? IE F _ IH]; intros r u st' E; try (injection E as <- <- <-).
  1, 2, 4: split; [lia|]; split; [intros l Hl; lia | intros X; contradiction X; reflexivity].
  - split; [lia|]. split; [intros k Hk; lia | intros _; split; [lia | exact IE]].
  - (* the lines behind nl are read in the state the chain returned, which has the tables of st *)
    assert (S : stb st st1) by (destruct F as [->|TE]; [apply stb_refl | exact (fr_stb _ _ (T _ _ _ _ _ _ CN TE))]).
    destruct (IH _ _ _ E) as (A & B & C). split; [lia|]. split.
    + intros l Hl. destruct (Z.eq_dec l nl) as [->|NE]; [exact IE|]. rewrite <- (is_empty_stb st st1 l S). apply B. lia.
    + intros U. rewrite <- (is_empty_stb st st1 r S). exact (C U).
Qed.

Lemma para_push_ends st s sl nl l ty tag f content ty' tag' f' old (Q : Prop) :
  b_tokens s = b_tokens st -> (forall t, tmap (f t) = Some (sl, l)) -> Q ->
  exists op inl cl, let st' := st_parent (bpush (push_inline (bpush (st_line s l) ty tag 1 f) content sl nl) ty' tag' (-1) f') old in
    b_tokens st' = b_tokens st ++ [op; inl; cl] /\ tmap op = Some (sl, l) /\ tmap inl = Some (sl, nl) /\ b_line st' = l /\ Q.
Proof.
  intros E F HQ. eexists _, _, _. split.
  { unfold push_inline. cbn [b_tokens st_parent set]. rewrite !BlockEff.bpush_tokens, <- !app_assoc. cbn [app b_tokens st_line set]. rewrite E. reflexivity. }
  split; [apply F|]. split; [reflexivity|]. split; [reflexivity | exact HQ].
Qed.

(* the paragraph: map [sl, nl), every line of it non-blank, in particular the last one *)
Theorem paragraph_ends_nonblank term (T : term_fr term) st sl el st' :
  r_paragraph term st sl el false = Ok (true, st') -> is_empty st sl = Ok false ->
  exists nl op inl cl,
    b_tokens st' = b_tokens st ++ [op; inl; cl] /\ tmap op = Some (sl, nl) /\ tmap inl = Some (sl, nl) /\ b_line st' = nl
    /\ sl < nl /\ (forall l, sl <= l < nl -> is_empty st l = Ok false).
Proof.
  unfold r_paragraph. intros H E0.
  rbind H as [[nl u] st1] eqn:PS.
  destruct (para_scan_lines term T nm_paragraph ltac:(discriminate) _ _ _ _ _ _ _ _ PS) as (LE & NB & _).
  destruct (get_lines st1 sl nl (b_blkIndent st1) false) as [raw|?|]; cbn [bind] in H; try discriminate H.
  injection H as <-.
  exists nl. apply para_push_ends; [exact (fr_tokens _ _ (para_scan_fr term T nm_paragraph ltac:(discriminate) _ _ _ _ _ _ _ _ PS)) | reflexivity|].
  split; [lia|]. intros l Hl. destruct (Z.eq_dec l sl) as [->|NE]; [exact E0|].
  change (is_empty st l) with (is_empty (st_parent st nm_paragraph) l). apply NB. lia.
Qed.

(* the indented-code scan: [last] is one past a code line, or the start *)
Lemma code_scan_last : forall fuel st nl el last r,
  code_scan cfg fuel st nl el last = Ok r ->
  r = last \/ (nl < r /\ is_empty st (r - 1) = Ok false).
Proof.
  induction fuel as [|f IH]; intros st nl el last r H; cbn [code_scan] in H; [injection H as <-; left; reflexivity|].
  destruct (negb (nl <? el)); [injection H as <-; left; reflexivity|].
  rbind H as e eqn:IE.
  destruct e.
  - destruct (IH _ _ _ _ _ H) as [->|[A B]]; [left; reflexivity | right; split; [lia | exact B]].
  - destruct (code_block_at cfg st nl) as [c|?|]; cbn [bind] in H; try discriminate H.
    destruct c; [|injection H as <-; left; reflexivity].
    destruct (IH _ _ _ _ _ H) as [->|[A B]]; [right; split; [lia | replace (nl + 1 - 1) with nl by lia; exact IE] | right; split; [lia | exact B]].
Qed.

Theorem code_block_ends_nonblank st sl el silent st' :
  r_code cfg st sl el silent = Ok (true, st') -> is_empty st sl = Ok false ->
  exists last t, b_tokens st' = b_tokens st ++ [t] /\ tmap t = Some (sl, last) /\ b_line st' = last
                 /\ sl < last /\ is_empty st (last - 1) = Ok false.
Proof.
  unfold r_code. intros H E0.
  destruct (code_block_at cfg st sl) as [c|?|]; cbn [bind] in H; try discriminate H.
  destruct (negb c); [discriminate H|].
  rbind H as last eqn:CS.
  destruct (get_lines (st_line st last) sl last (4 + b_blkIndent (st_line st last)) false) as [content|?|]; cbn [bind] in H; try discriminate H.
  injection H as <-.
  eexists last, _. split; [reflexivity|]. split; [reflexivity|]. split; [reflexivity|].
  destruct (code_scan_last _ _ _ _ _ _ CS) as [->|[A B]].
  - split; [lia|]. replace (sl + 1 - 1) with sl by lia. exact E0.
  - split; [lia | exact B].
Qed.

(* the setext heading: map [sl, nl + 1) with nl the underline; every line of it non-blank, in particular the last one;
   the inline token's map [sl, nl) stops before the underline *)
Theorem setext_heading_ends_nonblank term (T : term_fr term) st sl el st' :
  r_lheading cfg term st sl el false = Ok (true, st') -> is_empty st sl = Ok false ->
  exists nl op inl cl,
    b_tokens st' = b_tokens st ++ [op; inl; cl] /\ tmap op = Some (sl, nl + 1) /\ tmap inl = Some (sl, nl) /\ b_line st' = nl + 1
    /\ sl < nl /\ nl < el /\ (forall l, sl <= l < nl + 1 -> is_empty st l = Ok false).
Proof.
  unfold r_lheading. intros H E0.
  match type of H with bind ?m _ = _ => destruct m as [cb|?|] end; cbn [bind] in H; try discriminate H.
  destruct cb; [discriminate H|].
  rbind H as [[nl u] st1] eqn:PS.
  destruct u as [[marker level]|]; [|discriminate H].
  destruct (para_scan_lines term T nm_paragraph ltac:(discriminate) _ _ _ _ _ _ _ _ PS) as (LE & NB & UL).
  destruct (UL ltac:(discriminate)) as [LT UL'].
  destruct (get_lines st1 sl nl (b_blkIndent st1) false) as [raw|?|]; cbn [bind] in H; try discriminate H.
  injection H as <-.
  exists nl. apply para_push_ends; [exact (fr_tokens _ _ (para_scan_fr term T nm_paragraph ltac:(discriminate) _ _ _ _ _ _ _ _ PS)) | reflexivity|].
  split; [lia|]. split; [exact LT|]. intros l Hl. destruct (Z.eq_dec l sl) as [->|NE]; [exact E0|].
  change (is_empty st l) with (is_empty (st_parent st nm_paragraph) l).
  destruct (Z.eq_dec l nl) as [->|NE2]; [exact UL' | apply NB; lia].
Qed.

End Ends.
