(* C05: the alphabet of mdurl.encode, and what validateLink guarantees on it. *)
From MD Require Import Base.Py Base.Str Model.Utils Model.Url.
From MD Require Import Gen.Tables.
From Coq Require Import ZifyBool.

(* URL-safe ASCII: letters, digits, the excluded punctuation, and % *)
Definition url_char (c : Z) : bool := is_alnum c || mem_z c encode_default_chars || (c =? 37).

Lemma hex_digit_ok n : 0 <= n < 16 -> url_char (hex_digit n) = true.
Proof.
  intros H. unfold url_char, hex_digit, is_alnum.
  destruct (n <? 10) eqn:E; apply Bool.orb_true_iff; left; apply Bool.orb_true_iff; left; lia.
Qed.

Lemma pct_ok b : 0 <= b < 256 -> forallb url_char (pct b) = true.
Proof.
  intros H. unfold pct. cbn [forallb].
  rewrite (hex_digit_ok (b / 16)) by (split; [apply Z.div_pos; lia | apply Z.div_lt_upper_bound; lia]).
  rewrite (hex_digit_ok (b mod 16)) by (apply Z.mod_pos_bound; lia). reflexivity.
Qed.

Lemma enc_ascii_ok c : 0 <= c < 128 -> forallb url_char (enc_ascii c) = true.
Proof.
  intros H. unfold enc_ascii. destruct (is_alnum c || mem_z c encode_default_chars) eqn:E.
  - cbn [forallb]. unfold url_char. rewrite E. reflexivity.
  - apply pct_ok. lia.
Qed.

(* the lead byte of a 2-, 3-, 4-byte sequence carries 5, 4, 3 bits of c (c / 64 < 32, c / 4096 < 16, c / 262144 < 8),
   every continuation byte 6 *)
Lemma utf8_bytes_range c : 0 <= c < 1114112 -> Forall (fun b => 0 <= b < 256) (utf8_bytes c).
Proof.
  intros H. unfold utf8_bytes.
  destruct (c <? 128) eqn:E1; [repeat constructor; lia|].
  destruct (c <? 2048) eqn:E2.
  { repeat constructor; try (pose proof (Z.mod_pos_bound c 64 ltac:(lia)); lia);
      try (pose proof (Z.div_pos c 64 ltac:(lia) ltac:(lia)); lia);
      assert (c / 64 < 32) by (apply Z.div_lt_upper_bound; lia); lia. }
  destruct (c <? 65536) eqn:E3.
  { repeat constructor; try (pose proof (Z.mod_pos_bound c 64 ltac:(lia)); lia);
      try (pose proof (Z.mod_pos_bound (c / 64) 64 ltac:(lia)); lia);
      try (pose proof (Z.div_pos c 4096 ltac:(lia) ltac:(lia)); lia);
      assert (c / 4096 < 16) by (apply Z.div_lt_upper_bound; lia); lia. }
  repeat constructor; try (pose proof (Z.mod_pos_bound c 64 ltac:(lia)); lia);
    try (pose proof (Z.mod_pos_bound (c / 64) 64 ltac:(lia)); lia);
    try (pose proof (Z.mod_pos_bound (c / 4096) 64 ltac:(lia)); lia);
    try (pose proof (Z.div_pos c 262144 ltac:(lia) ltac:(lia)); lia);
    assert (c / 262144 < 8) by (apply Z.div_lt_upper_bound; lia); lia.
Qed.

Lemma enc_unicode_ok c : 0 <= c < 1114112 -> forallb url_char (enc_unicode c) = true.
Proof.
  intros H. unfold enc_unicode. pose proof (utf8_bytes_range c H) as F.
  induction F as [|b l Hb Hl IH]; [reflexivity|]. cbn [flat_map]. rewrite forallb_app, pct_ok by exact Hb. exact IH.
Qed.

Definition code_point (c : Z) : Prop := 0 <= c < 1114112.

(* C05: every character mdurl.encode emits is URL-safe ASCII, for every string of code points *)
Theorem encode_alphabet s : Forall code_point s -> forallb url_char (encode s) = true.
Proof.
  unfold encode. generalize (S (length s)) as fuel. intros fuel; revert s.
  induction fuel as [|f IH]; intros s H; [reflexivity|]. cbn [encode_fuel].
  destruct s as [|c rest]; [reflexivity|]. inversion H as [|? ? Hc Hr]; subst.
  assert (Hone : forallb url_char (if c <? 128 then enc_ascii c
                                   else if (55296 <=? c) && (c <=? 57343) then s_fffd_pct else enc_unicode c) = true).
  { destruct (c <? 128) eqn:E; [apply enc_ascii_ok; unfold code_point in Hc; lia|].
    destruct ((55296 <=? c) && (c <=? 57343)); [reflexivity | apply enc_unicode_ok, Hc]. }
  destruct rest as [|a [|b rest2]].
  - rewrite forallb_app, Hone. apply IH. constructor.
  - rewrite forallb_app, Hone. apply IH. exact Hr.
  - destruct ((c =? 37) && is_hexdigit a && is_hexdigit b) eqn:E.
    + apply Bool.andb_true_iff in E. destruct E as [E Eb]. apply Bool.andb_true_iff in E. destruct E as [Ec Ea].
      cbn [forallb].
      assert (Hh : forall x, is_hexdigit x = true -> url_char x = true).
      { intros x Hx. unfold url_char, is_alnum. unfold is_hexdigit in Hx.
        apply Bool.orb_true_iff. left. apply Bool.orb_true_iff. left. lia. }
      rewrite (Hh a Ea), (Hh b Eb).
      assert (Hp : url_char 37 = true) by reflexivity. rewrite Hp. cbn [andb].
      apply IH. inversion Hr as [|? ? _ Hr2]; subst. inversion Hr2; subst. assumption.
    + rewrite forallb_app, Hone. apply IH. exact Hr.
Qed.

(* URL-safe ASCII contains no blank, control, quote, angle bracket or non-ASCII character *)
Lemma url_char_facts c : url_char c = true ->
  33 <= c < 127 /\ c <> 34 /\ c <> 60 /\ c <> 62 /\ c <> 96 /\ c <> 92 /\ is_py_space c = false.
Proof.
  unfold url_char, is_alnum, is_py_space, mem_z, encode_default_chars, py_space. cbn [existsb]. lia.
Qed.

Lemma strip_noop s : forallb url_char s = true -> py_strip s = s.
Proof.
  intros H. unfold py_strip, strip_by, rstrip_by.
  assert (L : forall t, forallb url_char t = true -> lstrip_by is_py_space t = t).
  { intros t Ht. destruct t as [|c t]; [reflexivity|]. cbn [forallb] in Ht. apply Bool.andb_true_iff in Ht.
    destruct Ht as [Hc _]. cbn [lstrip_by]. destruct (url_char_facts c Hc) as [_ [_ [_ [_ [_ [_ E]]]]]]. rewrite E. reflexivity. }
  rewrite (L s H). rewrite L; [apply rev_involutive|].
  rewrite forallb_forall in *. intros x Hx. apply H. apply in_rev. exact Hx.
Qed.

Lemma starts_head a p u : starts_with (a :: p) u = true -> exists t, u = a :: t.
Proof.
  destruct u as [|c t]; cbn [starts_with]; intros H; [discriminate|].
  apply Bool.andb_true_iff in H. destruct H as [H _]. apply Z.eqb_eq in H. subst. eauto.
Qed.

Lemma good_data_head u : good_data u = true -> exists t, u = 100 :: t.
Proof.
  unfold good_data, p_img. intros H.
  repeat (apply Bool.orb_true_iff in H; destruct H as [H|H]); cbn [app] in H; eapply starts_head; exact H.
Qed.

(* what the validator guarantees for an emitted (encoded) URL h: read case-insensitively, it
   does not begin with vbscript: javascript: or file:, and if it begins with data: then with
   data:image/gif; png; jpeg; or webp;  -- leading/trailing blanks and controls, and embedded
   TAB/LF/CR, which a browser would ignore, cannot occur in h at all (url_char_facts) *)
Theorem validate_scheme h :
  forallb url_char h = true -> validate_link h = true ->
  starts_with p_vbscript (lower h) = false /\ starts_with p_javascript (lower h) = false
  /\ starts_with p_file (lower h) = false
  /\ (starts_with p_data (lower h) = true -> good_data (lower h) = true).
Proof.
  intros Ha Hv. unfold validate_link in Hv. rewrite (strip_noop h Ha) in Hv.
  unfold bad_proto in Hv.
  destruct (starts_with p_vbscript (lower h)) eqn:E1.
  { cbn [orb] in Hv. exfalso. destruct (good_data_head _ Hv) as [t Ht].
    destruct (starts_head _ _ _ E1) as [t' Ht']. congruence. }
  destruct (starts_with p_javascript (lower h)) eqn:E2.
  { cbn [orb] in Hv. exfalso. destruct (good_data_head _ Hv) as [t Ht].
    destruct (starts_head _ _ _ E2) as [t' Ht']. congruence. }
  destruct (starts_with p_file (lower h)) eqn:E3.
  { cbn [orb] in Hv. exfalso. destruct (good_data_head _ Hv) as [t Ht].
    destruct (starts_head _ _ _ E3) as [t' Ht']. congruence. }
  cbn [orb] in Hv. repeat split; try reflexivity. intros E4. rewrite E4 in Hv. exact Hv.
Qed.

(* whatever mdurl.parse/format/punycode do, an emitted link that passed the validator is safe *)
Corollary emitted_url_safe (reformat : str -> str) url :
  Forall code_point (reformat url) ->
  let h := normalize_link reformat url in
  validate_link h = true ->
  forallb url_char h = true
  /\ starts_with p_vbscript (lower h) = false /\ starts_with p_javascript (lower h) = false
  /\ starts_with p_file (lower h) = false
  /\ (starts_with p_data (lower h) = true -> good_data (lower h) = true).
Proof.
  intros Hc h Hv. pose proof (encode_alphabet _ Hc) as A. split; [exact A|]. apply validate_scheme; assumption.
Qed.
