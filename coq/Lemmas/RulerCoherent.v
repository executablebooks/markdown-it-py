(* C11: coherence of the Ruler cache over every history. *)
From MD Require Import Base.Py Model.Ruler.

Section Coh.
Context {F : Type}.
Notation rule := (rule F).
Notation ruler := (ruler F).
Notation op := (op F).

Definition Coherent (r : ruler) : Prop :=
  match cache r with
  | None => True
  | Some c => forall chain, cache_get c chain = compile_chain (rules r) chain
  end.

Lemma alookup_map_self {V} (f : str -> V) k cs :
  alookup k (map (fun c => (c, f c)) cs) = if mem_str k cs then Some (f k) else None.
Proof.
  induction cs as [|c cs IH]; simpl; [reflexivity|].
  destruct (str_eqb_spec k c) as [->|N]; simpl; [reflexivity | exact IH].
Qed.

Lemma filter_none {A} (p : A -> bool) l : (forall x, In x l -> p x = false) -> filter p l = [].
Proof.
  induction l as [|x l IH]; simpl; intros H; [reflexivity|].
  rewrite (H x (or_introl eq_refl)). apply IH. intros y Hy; apply H; right; exact Hy.
Qed.

Lemma compile_chain_absent (rs : list rule) chain :
  mem_str chain (chains_of rs) = false -> compile_chain rs chain = [].
Proof.
  unfold chains_of, compile_chain. intros H.
  rewrite filter_none; [reflexivity|].
  intros r Hr. destruct (renabled r) eqn:En; simpl; [|reflexivity].
  destruct (in_chain chain r) eqn:Hc; [|reflexivity]. exfalso.
  assert (Hin : mem_str chain ([] :: flat_map (fun r => if renabled r then ralt r else []) rs) = true).
  { apply mem_str_In. unfold in_chain in Hc. destruct chain as [|c0 ch]; [left; reflexivity|].
    right. apply in_flat_map. exists r; split; [exact Hr|]. rewrite En. apply mem_str_In; exact Hc. }
  congruence.
Qed.

Lemma compile_correct (rs : list rule) chain :
  cache_get (compile rs) chain = compile_chain rs chain.
Proof.
  unfold cache_get, compile. rewrite alookup_map_self.
  destruct (mem_str chain (chains_of rs)) eqn:E; [reflexivity|].
  symmetry; apply compile_chain_absent; exact E.
Qed.

Lemma toggle_cache v names ign (r : ruler) : cache (fst (toggle v names ign r)) = None.
Proof. unfold toggle. destruct (toggle_loop v names ign (rules r) []); reflexivity. Qed.

Lemma get_rules_rules (r : ruler) chain : rules (fst (get_rules r chain)) = rules r.
Proof. unfold get_rules; destruct (cache r); reflexivity. Qed.

Lemma get_rules_coherent (r : ruler) chain : Coherent r -> Coherent (fst (get_rules r chain)).
Proof.
  unfold get_rules, Coherent. destruct (cache r) eqn:E; simpl; intros H.
  - rewrite E; exact H.
  - intros c; apply compile_correct.
Qed.

Lemma step_coherent (r : ruler) (o : op) : Coherent r -> Coherent (fst (step r o)).
Proof.
  intros H. destruct o; simpl;
    try (destruct (find (rules r) _); simpl; [exact I | exact H]);
    try exact I; try exact H;
    try (unfold Coherent; rewrite toggle_cache; exact I).
  - pose proof (get_rules_coherent r chain H) as H'.
    destruct (get_rules r chain); exact H'.
Qed.

Theorem history_coherent (ops : list op) (r : ruler) : Coherent r -> Coherent (run ops r).
Proof. apply fold_left_inv, step_coherent. Qed.

Lemma init_coherent : Coherent (@ruler_init F).
Proof. exact I. Qed.

Lemma filter_filter_and {A} (p q : A -> bool) l :
  filter q (filter p l) = filter (fun x => p x && q x) l.
Proof.
  induction l as [|x l IH]; simpl; [reflexivity|].
  destruct (p x); simpl; [destruct (q x); simpl; rewrite IH; reflexivity | exact IH].
Qed.

(* What a parse applies (getRules(chain), [get_rules]) is computed from exactly the list
   that get_active_rules reports ([active]): the enabled rules in registration order,
   filtered by chain membership. *)
Lemma get_rules_spec (r : ruler) chain :
  Coherent r ->
  snd (get_rules r chain) = map rfn (filter (in_chain chain) (active r)).
Proof.
  unfold get_rules, Coherent, active. rewrite filter_filter_and.
  destruct (cache r); simpl; intros H.
  - apply H.
  - apply compile_correct.
Qed.

Theorem applied_eq_reported (ops : list op) chain :
  let r := run ops ruler_init in
  snd (get_rules r chain) = map rfn (filter (in_chain chain) (active r))
  /\ active_names r = map rname (active r).
Proof.
  intros r; split; [|reflexivity].
  apply get_rules_spec, history_coherent, init_coherent.
Qed.

(* same statement from any coherent starting point, e.g. a ruler populated
   by the parser constructors *)
Theorem applied_eq_reported_from (ops : list op) (r0 : ruler) chain :
  Coherent r0 ->
  let r := run ops r0 in
  snd (get_rules r chain) = map rfn (filter (in_chain chain) (active r)).
Proof. intros H r. apply get_rules_spec, history_coherent, H. Qed.

Theorem get_rules_stable (r : ruler) c1 c2 :
  Coherent r ->
  snd (get_rules (fst (get_rules r c1)) c2) = snd (get_rules r c2).
Proof.
  intros H. rewrite !get_rules_spec; [|exact H|apply get_rules_coherent, H].
  unfold active. rewrite get_rules_rules. reflexivity.
Qed.

Theorem unlisted_chain_empty (ops : list op) chain :
  let r := run ops ruler_init in
  chain <> [] ->
  (forall x, In x (active r) -> mem_str chain (ralt x) = false) ->
  snd (get_rules r chain) = [].
Proof.
  intros r Hc Hx. destruct (applied_eq_reported ops chain) as [H _]. fold r in H.
  rewrite H. rewrite filter_none; [reflexivity|].
  intros x Hin. unfold in_chain. destruct chain as [|c0 ch]; [congruence|]. apply Hx, Hin.
Qed.

End Coh.

(* the code before the repair (cache kept when enable / disable raise) violates coherence *)

Definition legacy_run (ops : list (op Z)) : ruler Z :=
  fold_left (fun r o => fst (step_legacy r o)) ops ruler_init.

Definition stale_history : list (op Z) :=
  [OpPush [97] 1 []; OpPush [98] 2 []; OpGetRules [];
   OpEnableOnly [[97]; [110; 111]] false].

Lemma stale_cache_refuted :
  let r := legacy_run stale_history in
  snd (get_rules r []) = [1; 2] /\ active_names r = [[97]]
  /\ snd (get_rules r []) <> map rfn (filter (in_chain []) (active r)).
Proof. vm_compute. repeat split; congruence. Qed.
