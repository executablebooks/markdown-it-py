(* escapeHtml: the four replace passes equal the character-wise function, and
   its output can never open a tag, close an attribute value or start an entity
   of its own (C04). *)
From MD Require Import Base.Py Base.Str Model.Utils.

Lemma replace_char_app c new a b : replace_char c new (a ++ b) = replace_char c new a ++ replace_char c new b.
Proof. unfold replace_char. apply flat_map_app. Qed.

Lemma replace_char_absent c new s : mem_z c s = false -> replace_char c new s = s.
Proof.
  unfold replace_char, mem_z. induction s as [|x s IH]; simpl; intros H; [reflexivity|].
  apply Bool.orb_false_iff in H. destruct H as [H1 H2]. rewrite Z.eqb_sym in H1. rewrite H1. simpl.
  rewrite IH; [reflexivity | exact H2].
Qed.

Theorem escape_html_passes_eq s : escape_html_passes s = escape_html s.
Proof.
  unfold escape_html_passes, escape_html. induction s as [|c s IH]; [reflexivity|].
  change (c :: s) with ([c] ++ s). rewrite !replace_char_app, flat_map_app. rewrite IH. f_equal.
  unfold esc_char, replace_char, amp, lt, gt, quot, s_amp, s_lt, s_gt, s_quot. simpl.
  destruct (Z.eqb_spec c 38) as [->|N1]; [reflexivity|]. simpl.
  destruct (Z.eqb_spec c 60) as [->|N2]; [reflexivity|]. simpl.
  destruct (Z.eqb_spec c 62) as [->|N3]; [reflexivity|]. simpl.
  destruct (Z.eqb_spec c 34) as [->|N4]; reflexivity.
Qed.

(* characters that are dangerous in text and in double-quoted attribute values *)
Definition dangerous (c : Z) : bool := (c =? lt) || (c =? gt) || (c =? quot).

Fixpoint amp_ok (s : str) : bool :=
  match s with
  | [] => true
  | c :: s' =>
      (if c =? amp
       then starts_with s_amp s || starts_with s_lt s || starts_with s_gt s || starts_with s_quot s
       else true) && amp_ok s'
  end.

Definition safe (s : str) : Prop := forallb (fun c => negb (dangerous c)) s = true /\ amp_ok s = true.

Lemma esc_char_no_danger c : forallb (fun x => negb (dangerous x)) (esc_char c) = true.
Proof.
  unfold esc_char, dangerous, amp, lt, gt, quot, s_amp, s_lt, s_gt, s_quot.
  destruct (Z.eqb_spec c 38); [reflexivity|].
  destruct (Z.eqb_spec c 60); [reflexivity|].
  destruct (Z.eqb_spec c 62); [reflexivity|].
  destruct (Z.eqb_spec c 34); [reflexivity|]. simpl.
  destruct (Z.eqb_spec c 60); [contradiction|]. destruct (Z.eqb_spec c 62); [contradiction|].
  destruct (Z.eqb_spec c 34); [contradiction|]. reflexivity.
Qed.

Lemma amp_ok_app_esc c rest : amp_ok rest = true -> amp_ok (esc_char c ++ rest) = true.
Proof.
  intros H. unfold esc_char, amp, lt, gt, quot, s_amp, s_lt, s_gt, s_quot.
  destruct (Z.eqb_spec c 38); [simpl; exact H|].
  destruct (Z.eqb_spec c 60); [simpl; exact H|].
  destruct (Z.eqb_spec c 62); [simpl; exact H|].
  destruct (Z.eqb_spec c 34); [simpl; exact H|].
  cbn [app amp_ok]. unfold amp. destruct (Z.eqb_spec c 38); [contradiction|]. exact H.
Qed.

(* C04, core fact: for EVERY string, the escaped form contains no <, > or double quote, and
   every & in it starts &amp; &lt; &gt; or &quot; *)
Theorem escape_safe s : safe (escape_html s).
Proof.
  unfold safe, escape_html. induction s as [|c s [IH1 IH2]]; [split; reflexivity|]. simpl. split.
  - rewrite forallb_app, esc_char_no_danger. exact IH1.
  - apply amp_ok_app_esc, IH2.
Qed.

