(* re.sub over the matcher of Base/Regex.v is a single pass over the string: at the cursor the pattern either matches a
   non-empty piece, which is replaced, or does not match, and one character is copied.  Whoever knows what a pattern
   does at the cursor ([sub_step]: a function [pass] that unfolds that way) knows what [sub] computes ([sub_pass]);
   the loop with its fuel and accumulator is looked into here only. *)
From MD Require Import Base.Py Base.Str Base.Regex.

(* A match has to say two things: that it shortens what is left (the loop's fuel is the length), and that its end is
   not its start, which is how the loop itself recognises an empty match; the matcher has no lemma that ties positions
   to lengths, so neither follows from the other here. *)
Definition sub_step (r : re) (f : str -> mstate -> str) (s : str) (pass : str -> str) : Prop :=
  forall b a p,
    match match_at r (mkM b a p []) with
    | Some e => ((length (m_after e) < length a)%nat /\ m_pos e <> p)
                /\ pass a = f (slice s p (m_pos e)) e ++ pass (m_after e)
    | None => pass a = match a with [] => [] | c :: a' => c :: pass a' end
    end.

Lemma sub_loop_pass r f s pass : sub_step r f s pass ->
  forall fuel st acc, (length (m_after st) < fuel)%nat -> sub_loop fuel r f s st acc = acc ++ pass (m_after st).
Proof.
  intros H. induction fuel as [|fuel IH]; intros st acc Hf; [lia|]. cbn [sub_loop].
  pose proof (H (m_before st) (m_after st) (m_pos st)) as Hm.
  destruct (match_at r (mkM (m_before st) (m_after st) (m_pos st) [])) as [e|].
  - destruct Hm as ((Hl & Hp) & Hs). apply Z.eqb_neq in Hp. rewrite Hp.
    rewrite IH by (cbn [m_after]; lia). cbn [m_after]. rewrite Hs. symmetry. apply app_assoc.
  - rewrite Hm. unfold advance. destruct (m_after st) as [|c a'].
    + symmetry. apply app_nil_r.
    + rewrite IH by (cbn [m_after length] in *; lia). cbn [m_after]. rewrite <- app_assoc. reflexivity.
Qed.

Lemma sub_pass r f s pass : sub_step r f s pass -> sub r f s = pass s.
Proof. intros H. unfold sub. rewrite (sub_loop_pass r f s pass H) by (cbn; lia). reflexivity. Qed.
