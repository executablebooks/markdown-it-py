(* C01, inline parser: no exception.  A weakest-precondition style predicate [safe m P] ("m does
   not raise, and if it returns a value then P holds of it") is carried through every inline rule,
   skipToken, the tokenizer loop, the nested tokenize of link text and the nested parse of image
   descriptions, and through the post-processing rules (balance_pairs, strikethrough and emphasis
   post-processing, fragments_join). *)
From RecordUpdate Require Import RecordUpdate.
From MD Require Import Base.Py Base.Str Base.Regex Model.StateBlock Model.Helpers Model.Url Model.Inline
     Lemmas.StrLemmas Lemmas.LfCount Lemmas.Verbatim Lemmas.InlineLemmas.
From MD Require Import Gen.Regexes Gen.Tables .
From Coq Require Import ZifyBool.

Definition safe {A} (m : res A) (P : A -> Prop) : Prop :=
  match m with Ok a => P a | Raise _ => False | OutOfFuel => True end.

Lemma safe_ok {A} (a : A) (P : A -> Prop) : P a -> safe (Ok a) P.
Proof. exact (fun H => H). Qed.
Lemma safe_bind {A B} (m : res A) (k : A -> res B) (Q : A -> Prop) (P : B -> Prop) :
  safe m Q -> (forall a, m = Ok a -> Q a -> safe (k a) P) -> safe (bind m k) P.
Proof. intros Hm Hk. destruct m as [a|e|]; cbn [bind]; [apply Hk; [reflexivity | exact Hm] | exact Hm | exact I]. Qed.
Lemma safe_weaken {A} (m : res A) (P Q : A -> Prop) : safe m P -> (forall a, m = Ok a -> P a -> Q a) -> safe m Q.
Proof. intros H W. destruct m as [a|e|]; [apply W; [reflexivity | exact H] | exact H | exact I]. Qed.
Lemma safe_nr {A} (m : res A) P : safe m P -> forall e, m <> Raise e.
Proof. intros H e E. rewrite E in H. exact H. Qed.
Lemma safe_ok_inv {A} (m : res A) P a : safe m P -> m = Ok a -> P a.
Proof. intros H E. rewrite E in H. exact H. Qed.

(* l[i] with Python's wrap-around, as py_idx, tb (jget), dget and tget all spell it *)
Lemma read_safe {A} (l : list A) i : - len l <= i < len l ->
  safe (let j := if i <? 0 then i + len l else i in
        match (if j <? 0 then None else nth_error l (Z.to_nat j)) with Some v => Ok v | None => Raise IndexError end)
       (fun v => In v l /\ (0 <= i -> nth_error l (Z.to_nat i) = Some v)).
Proof.
  intros H. cbv zeta. assert (J : exists j, (if i <? 0 then i + len l else i) = j /\ 0 <= j < len l /\ (0 <= i -> j = i))
    by (destruct (i <? 0) eqn:N; eexists; (split; [reflexivity | lia])).
  destruct J as (j & -> & J & Ji). assert (X : (j <? 0) = false) by lia. rewrite X.
  destruct (nth_error l (Z.to_nat j)) eqn:E; [|apply nth_error_None in E; unfold len in J; lia].
  split; [exact (nth_error_In _ _ E)|]. intros P. rewrite <- (Ji P). exact E.
Qed.

Lemma safe_py_idx s i : 0 <= i < len s -> safe (py_idx s i) (fun _ => True).
Proof. intros H. eapply safe_weaken; [apply (read_safe s i); lia | intros; exact I]. Qed.

Lemma advance_pos st c st' : advance st = Some (c, st') -> m_pos st' = m_pos st + 1.
Proof. unfold advance. destruct (m_after st); [discriminate|]. intros H. injection H as _ <-. reflexivity. Qed.

(* a conservative test: the expression cannot match the empty string *)
Fixpoint nonempty (r : re) : bool :=
  match r with
  | RIn _ _ | RAny => true
  | RCat a b => nonempty a || nonempty b
  | RAlt a b => nonempty a && nonempty b
  | RRep mn _ _ body => Nat.leb 1 mn && nonempty body
  | RGroup _ body => nonempty body
  | _ => false
  end.

Lemma mt_adv : forall r st k e, mt r st k = Some e ->
  exists st', m_pos st + Z.b2z (nonempty r) <= m_pos st' /\ k st' = Some e.
Proof.
  induction r as [| |neg items| |a IHa b IHb|a IHa b IHb|mn mx greedy body IH|g body IH|ml|ml|neg body IH]; intros st k e H; cbn [mt] in H; cbn [nonempty].
  - exists st. split; [lia | exact H].
  - discriminate H.
  - destruct (advance st) as [[c st']|] eqn:A; [|discriminate H]. destruct (xorb neg (in_cls c items)); [|discriminate H].
    exists st'. split; [rewrite (advance_pos _ _ _ A); lia | exact H].
  - destruct (advance st) as [[c st']|] eqn:A; [|discriminate H]. destruct (c =? 10); [discriminate H|].
    exists st'. split; [rewrite (advance_pos _ _ _ A); lia | exact H].
  - apply IHa in H. destruct H as (s1 & L1 & H). apply IHb in H. destruct H as (s2 & L2 & H). exists s2.
    split; [lia | exact H].
  - destruct (mt a st k) eqn:E; [injection H as <-; apply IHa in E; rename E into H | apply IHb in H];
      destruct H as (s1 & L1 & H); exists s1; (split; [lia | exact H]).
  - (* the loop ends past its start by one body at least, or at its start having done mn iterations already *)
    assert (G : exists st', k st' = Some e /\ m_pos st <= m_pos st' /\ ((mn <= 0)%nat \/ m_pos st + Z.b2z (nonempty body) <= m_pos st')).
    { revert H. generalize (S (length (m_after st)) + mn)%nat. generalize 0%nat. revert st.
      intros st count fuel. revert count st. induction fuel as [|f IHf]; intros count st H; [discriminate H|].
      (* one more iteration, or stopping here, gave e *)
      match type of H with (if _ then match ?more with _ => _ end else match ?stop with _ => _ end) = _ =>
        assert (C : more = Some e \/ stop = Some e)
          by (destruct more, stop, greedy; first [left; exact H | right; exact H | discriminate H]) end.
      clear H. destruct C as [H|H].
      - destruct (match mx with Some m => (count <? m)%nat | None => true end); [|discriminate H].
        apply IH in H. destruct H as (s1 & L1 & H).
        destruct ((m_pos s1 =? m_pos st) && (mn <=? S count)%nat); [exists s1; split; [exact H | lia]|].
        apply IHf in H. destruct H as (s2 & H & L2 & _). exists s2. split; [exact H | lia].
      - destruct (mn <=? count)%nat eqn:Le; [|discriminate H]. apply Nat.leb_le in Le. exists st. split; [exact H | lia]. }
    destruct G as (s & H' & L & G). exists s. split; [|exact H'].
    lia.
  - apply IH in H. destruct H as (s1 & L1 & H). eexists. split; [|exact H]. cbn. exact L1.
  - exists st. split; [lia|]. destruct (m_before st) as [|c ?]; [exact H|]. destruct (ml && (c =? 10)); [exact H | discriminate H].
  - exists st. split; [lia|]. destruct (m_after st) as [|c rest]; [exact H|].
    destruct (c =? 10); [|discriminate H]. destruct ml; [exact H|]. destruct rest; [exact H | discriminate H].
  - exists st. split; [lia|]. match type of H with (if ?c then _ else _) = _ => destruct c end; [exact H | discriminate H].
Qed.

Lemma match_at_ge r st e : match_at r st = Some e -> m_pos st <= m_pos e.
Proof. unfold match_at. intros H. apply mt_adv in H. destruct H as (s & L & H). injection H as <-. lia. Qed.

Lemma match_at_gt r st e : nonempty r = true -> match_at r st = Some e -> m_pos st < m_pos e.
Proof. unfold match_at. intros NE H. apply mt_adv in H. destruct H as (s & L & H). injection H as <-. rewrite NE in L. cbn in L. lia. Qed.

Lemma html_tag_nonempty : nonempty re_html_inline_HTML_TAG_RE = true. Proof. reflexivity. Qed.
Lemma digital_nonempty : nonempty re_entity_DIGITAL_RE = true. Proof. reflexivity. Qed.
Lemma named_nonempty : nonempty re_entity_NAMED_RE = true. Proof. reflexivity. Qed.

(* every delimiter of every delimiter list points at an existing token and is not matched yet *)
Definition DD (st : istate) : Prop :=
  forall l, In l (i_dstore st) -> forall d, In d l -> 0 <= d_token d < len (i_tokens st) /\ d_end d = -1.
(* every entry of the skipToken memo table binds a position to a later one *)
Definition CA (st : istate) : Prop := Forall (fun kv : Z * Z => 0 <= snd kv /\ fst kv < snd kv) (i_cache st).
Definition DI (st : istate) : Prop := DD st /\ CA st.
Definition PI (st : istate) : Prop := 0 <= i_pos st /\ i_posMax st <= len (i_src st) /\ DI st.
Definition kp (st st' : istate) : Prop :=
  PI st' /\ i_src st' = i_src st /\ i_posMax st' = i_posMax st /\ i_prev st' = i_prev st.
(* what a rule returns: it failed and the cursor did not move, or it succeeded and the cursor moved forward *)
Definition kpr (st : istate) (r : bool * istate) : Prop :=
  kp st (snd r) /\ (fst r = false -> i_pos (snd r) = i_pos st) /\ (fst r = true -> i_pos st < i_pos (snd r)).

Lemma kp_refl st : PI st -> kp st st.
Proof. intros H. split; [exact H|]. split; [reflexivity|]. split; reflexivity. Qed.
Lemma kp_trans a b c : kp a b -> kp b c -> kp a c.
Proof. intros (_ & A2 & A3 & A4) (B1 & B2 & B3 & B4). split; [exact B1|]. split; [congruence|]. split; congruence. Qed.

Definition kps (st st' : istate) : Prop := kp st st' /\ i_pos st' = i_pos st.

Lemma kps_refl st : PI st -> kps st st.
Proof. intros H. split; [exact (kp_refl st H) | reflexivity]. Qed.
Lemma kps_trans a b c : kps a b -> kps b c -> kps a c.
Proof. intros [A1 A2] [B1 B2]. split; [exact (kp_trans _ _ _ A1 B1) | congruence]. Qed.
(* [kp] reads src, posMax, prev, cache, tokens, dstore and the sign of the cursor: a state with another field set
   is, for it, the same state by computation *)
Lemma kp_setpos st st' p : kp st st' -> 0 <= p -> kp st (st' <| i_pos := p |>).
Proof. intros [HP E] Hp. exact (conj (conj Hp (proj2 HP)) E). Qed.

Lemma kpr_fail st st' : kps st st' -> kpr st (false, st').
Proof. intros [K E]. split; [exact K|]. split; [intros _; exact E | discriminate]. Qed.
Lemma kpr_same st : PI st -> safe (Ok (false, st)) (kpr st).
Proof. intros H. apply kpr_fail, kps_refl, H. Qed.
Lemma kpr_move st st' p : 0 <= i_pos st -> kp st st' -> i_pos st < p -> kpr st (true, st' <| i_pos := p |>).
Proof.
  intros P0 K L. split; [|split; [discriminate | intros _; exact L]].
  apply kp_setpos; [exact K | lia].
Qed.
Lemma kpr_emit st m (p : istate -> Z) : safe m (kps st) ->
  (forall st1, i_pos st1 = i_pos st -> i_pos st < p st1) ->
  safe (do st1 <- m; Ok (true, st1 <| i_pos := p st1 |>)) (kpr st).
Proof.
  intros Hm Hp. eapply safe_bind; [exact Hm|]. intros st1 _ [K E].
  apply safe_ok, kpr_move; [rewrite <- E; exact (proj1 (proj1 K)) | exact K | exact (Hp st1 E)].
Qed.

Lemma len_snoc {A} (l : list A) x : len (l ++ [x]) = len l + 1.
Proof. rewrite len_app. unfold len. cbn. lia. Qed.

Lemma DI_mono st st' : DI st -> len (i_tokens st) <= len (i_tokens st') ->
  (forall l, In l (i_dstore st') -> l = [] \/ In l (i_dstore st)) -> i_cache st' = i_cache st -> DI st'.
Proof.
  intros [D C] L S EC. split; [|unfold CA; rewrite EC; exact C]. intros l Hl d Hd. destruct (S l Hl) as [->|I]; [contradiction Hd|].
  destruct (D l I d Hd) as [A B]. split; [lia | exact B].
Qed.

Lemma PI_snoc s t ds : PI s -> ds = i_dstore s \/ ds = i_dstore s ++ [[]] ->
  PI (s <| i_tokens := i_tokens s ++ [t] |> <| i_dstore := ds |>).
Proof.
  intros (P0 & P1 & D) Hds. split; [exact P0|]. split; [exact P1|].
  apply (DI_mono s); [exact D | cbn; rewrite len_snoc; lia | | reflexivity].
  intros l Hl. cbn in Hl. destruct Hds as [->| ->]; [right; exact Hl|].
  apply in_app_or in Hl. destruct Hl as [I|[<-|[]]]; [right; exact I | left; reflexivity].
Qed.

Lemma push_pending_kp st : PI st -> kp st (push_pending st) /\ i_pos (push_pending st) = i_pos st.
Proof.
  intros H. split; [|reflexivity]. split; [|split; [reflexivity|]; split; reflexivity].
  exact (PI_snoc st _ _ H (or_introl eq_refl)).
Qed.

Lemma flush_kp st : PI st -> kps st (flushed st) /\ i_cur (flushed st) = i_cur st /\ i_dstore (flushed st) = i_dstore st.
Proof.
  intros H. unfold flushed. destruct (i_pending st); [split; [apply kps_refl; exact H | split; reflexivity]|].
  split; [exact (push_pending_kp st H) | split; reflexivity].
Qed.

Lemma ipush0_safe st ty tag f : PI st ->
  safe (ipush st ty tag 0 f) (fun st' => kps st st' /\ i_cur st' = i_cur st /\ i_dstore st' = i_dstore st /\ 0 < len (i_tokens st')).
Proof.
  intros H. rewrite ipush_leaf_eq. destruct (flush_kp st H) as ([K F2] & F3 & F4). pose proof (proj1 K) as HP0.
  split; [|split; [exact F3|]; split; [exact F4|]; cbn; rewrite len_snoc; pose proof (len_nonneg (i_tokens (flushed st))); lia].
  split; [|exact F2]. eapply kp_trans; [exact K|]. split; [|split; [reflexivity|]; split; reflexivity].
  exact (PI_snoc (flushed st) _ _ HP0 (or_introl eq_refl)).
Qed.

Lemma ipush0_kps st s ty tag f : kps st s -> safe (ipush s ty tag 0 f) (kps st).
Proof.
  intros K. eapply safe_weaken; [apply ipush0_safe; exact (proj1 (proj1 K))|]. intros s' _ (K' & _). exact (kps_trans _ _ _ K K').
Qed.
Lemma silent_push st s (silent : bool) ty tag f : kps st s -> safe (if silent then Ok s else ipush s ty tag 0 f) (kps st).
Proof. intros K. destruct silent; [exact K | apply ipush0_kps; exact K]. Qed.

Lemma ipush1_safe st ty tag f : PI st ->
  safe (ipush st ty tag 1 f) (fun st' => PI st' /\ i_src st' = i_src st /\ i_posMax st' = i_posMax st /\ i_pos st' = i_pos st
                                          /\ i_prev st' = i_cur st :: i_prev st).
Proof.
  intros H. rewrite ipush_open_eq. destruct (flush_kp st H) as ([(HP0 & K2 & K3 & K4) F2] & F3 & F4).
  split; [|split; [exact K2|]; split; [exact K3|]; split; [exact F2|]; cbn; rewrite F3, K4; reflexivity].
  exact (PI_snoc (flushed st) _ _ HP0 (or_intror eq_refl)).
Qed.

Lemma ipushm1_safe st ty tag f p rest : PI st -> i_prev st = p :: rest ->
  safe (ipush st ty tag (-1) f) (fun st' => PI st' /\ i_src st' = i_src st /\ i_posMax st' = i_posMax st /\ i_pos st' = i_pos st
                                             /\ i_prev st' = rest).
Proof.
  intros H PR. rewrite (ipush_close_eq _ _ _ _ _ _ PR). destruct (flush_kp st H) as ([(HP0 & K2 & K3 & _) F2] & _).
  split; [|split; [exact K2|]; split; [exact K3|]; split; [exact F2 | reflexivity]].
  exact (PI_snoc (flushed st) _ _ HP0 (or_introl eq_refl)).
Qed.

Ltac sstep :=
  match goal with
  | |- safe (Ok _) _ => apply safe_ok
  | |- safe (if true then ?a else _) ?P => change (safe a P)
  | |- safe (if false then _ else ?a) ?P => change (safe a P)
  | |- safe (if ?b then _ else _) _ => let Q := fresh "Q" in destruct b eqn:Q
  | |- safe (match ?x with _ => _ end) _ => let Q := fresh "Q" in destruct x eqn:Q
  end.
(* an unguarded read inside the source *)
Ltac spy := eapply safe_bind; [apply safe_py_idx; lia | let c := fresh "c" in let Ec := fresh "Ec" in intros c Ec _].

Lemma find_terminator_ge : forall s i p, find_terminator s i = Some p -> i <= p.
Proof. induction s as [|c s IH]; intros i p H; cbn [find_terminator] in H; [discriminate|]. destruct (mem_z c text_terminators); [injection H as <-; lia|]. apply IH in H. lia. Qed.

Lemma skip_sp_fwd_safe : forall fuel src pos mx, 0 <= pos -> mx <= len src -> safe (skip_sp_fwd fuel src pos mx) (fun r => pos <= r).
Proof.
  induction fuel as [|f IH]; intros src pos mx H0 H1; cbn [skip_sp_fwd]; [apply safe_ok; lia|].
  destruct (pos <? mx) eqn:E; [|apply safe_ok; lia]. spy. sstep; [|apply safe_ok; lia].
  eapply safe_weaken; [apply IH; lia|]. intros r _ Hr. cbv beta in Hr. lia.
Qed.
Lemma run_len_safe : forall fuel src pos mx m, 0 <= pos -> mx <= len src ->
  safe (run_len fuel src pos mx m) (fun r => pos <= r /\ (r <= mx \/ r = pos)).
Proof.
  induction fuel as [|f IH]; intros src pos mx m H0 H1; cbn [run_len]; [apply safe_ok; lia|].
  destruct (pos <? mx) eqn:E; [|apply safe_ok; lia]. spy. sstep; [|apply safe_ok; lia].
  eapply safe_weaken; [apply IH; lia|]. intros r _ Hr. cbv beta in Hr. lia.
Qed.
Lemma push_markers_safe st : forall n s content marker length op cl, kps st s ->
  safe (push_markers n s content marker length op cl) (kps st).
Proof.
  induction n as [|n IH]; intros s content marker length op cl K; cbn [push_markers]; [exact K|].
  eapply safe_bind; [apply ipush0_safe; exact (proj1 (proj1 K))|]. intros s1 _ (K1 & E2 & E3 & E4).
  pose proof (kps_trans _ _ _ K K1) as [(_ & B2 & B3 & B5) B4]. pose proof (proj1 (proj1 K1)) as (Q0 & Q1 & D & CC).
  (* the new delimiter points at the token just pushed *)
  apply IH. split; [|exact B4]. split; [|split; [exact B2|]; split; [exact B3 | exact B5]].
  split; [exact Q0|]. split; [exact Q1|]. split; [|exact CC]. intros l Hl x Hx. cbn in Hl.
  apply In_upd_nth_l in Hl. destruct Hl as [I|(y & I & ->)]; [exact (D l I x Hx)|].
  apply in_app_or in Hx. destruct Hx as [Hx|[<-|[]]]; [exact (D y I x Hx)|]. cbn. split; [lia | reflexivity].
Qed.

(* link_open, text, link_close: the delimiter list opened by the first push is closed by the third *)
Lemma push_autolink_safe lt s full url : PI s -> safe (push_autolink lt s full url) (kps s).
Proof.
  intros HS. unfold push_autolink.
  eapply safe_bind; [apply ipush1_safe; exact HS|]. intros s1 _ (A1 & A2 & A3 & A4 & A5).
  eapply safe_bind; [apply ipush0_safe; exact A1|]. intros s2 _ (((B11 & B12 & B13 & B14) & B2) & _).
  eapply safe_weaken; [eapply ipushm1_safe; [exact B11 | rewrite B14; exact A5]|].
  intros s3 _ (C1 & C2 & C3 & C4 & C5). split; [|congruence].
  split; [exact C1|]. split; [congruence|]. split; congruence.
Qed.

Section SRules.
Context (cfg : icfg).
Context (NOLINKIFY : ic_linkify cfg = false).

(* a rule is only ever called with the cursor inside the range: the tokenizer loop tests it first, and skipToken
   is only called by label_loop, which tests it before its read *)
Section One.
Context (st : istate) (HP : PI st) (HL : i_pos st < i_posMax st).
Let P0 : 0 <= i_pos st := proj1 HP.
Let P1 : i_posMax st <= len (i_src st) := proj1 (proj2 HP).
Let K0 : kps st st := kps_refl st HP.

Lemma r_text_safe silent : safe (r_text st silent) (kpr st).
Proof.
  unfold r_text. cbv zeta.
  set (pos := match find_terminator (skipn (Z.to_nat (i_pos st)) (i_src st)) (i_pos st) with Some p => p | None => i_posMax st end).
  assert (PG : i_pos st <= pos).
  { unfold pos. destruct (find_terminator _ _) eqn:E; [exact (find_terminator_ge _ _ _ E) | lia]. }
  sstep; [apply kpr_same, HP|]. apply safe_ok, kpr_move; [exact P0 | destruct silent; exact (proj1 K0) | lia].
Qed.

Lemma r_linkify_safe silent : safe (r_linkify cfg st silent) (kpr st).
Proof. unfold r_linkify. rewrite NOLINKIFY. apply kpr_same, HP. Qed.

Lemma r_newline_safe silent : safe (r_newline st silent) (kpr st).
Proof.
  unfold r_newline. spy. sstep; [apply kpr_same, HP|]. cbv zeta.
  eapply safe_bind with (Q := kps st).
  { destruct silent; [exact K0|]. cbv iota.
    (* trimming the pending text first is a change the invariant does not see *)
    sstep; [sstep|]; apply ipush0_kps, K0. }
  intros st1 _ [K _].
  eapply safe_bind; [apply skip_sp_fwd_safe; lia|]. intros pos _ Hpos. cbv beta in Hpos.
  apply safe_ok, kpr_move; [exact P0 | exact K | lia].
Qed.

Lemma r_escape_safe silent : safe (r_escape st silent) (kpr st).
Proof.
  unfold r_escape. spy. sstep; [apply kpr_same, HP|]. cbv zeta.
  sstep; [apply kpr_same, HP|]. spy. sstep.
  - eapply safe_bind; [apply silent_push, K0|]. intros st1 _ [K _].
    eapply safe_bind; [apply skip_sp_fwd_safe; lia|]. intros p _ Hp. cbv beta in Hp.
    apply safe_ok, kpr_move; [exact P0 | exact K | lia].
  - apply kpr_emit; [apply silent_push, K0 | intros; lia].
Qed.

Lemma bt_scan_safe : forall fuel matchEnd mx ol bts, 0 <= matchEnd -> mx <= len (i_src st) -> matchEnd <= len (i_src st) ->
  safe (bt_scan fuel st matchEnd mx ol bts) (fun r => match fst r with Some (ms, me) => matchEnd < me | None => True end).
Proof.
  induction fuel as [|f IH]; intros matchEnd mx ol bts H0 H1 H2; cbn [bt_scan]; [apply safe_ok; exact I|]. cbv zeta.
  destruct (find_from [96] (i_src st) matchEnd =? -1) eqn:F; [apply safe_ok; exact I|].
  destruct (find_from_spec 96 (i_src st) matchEnd _ eq_refl ltac:(lia) H0) as [G1 G2].
  pose proof (len_nonneg (i_src st)) as LN. assert (G0 : 0 <= find_from [96] (i_src st) matchEnd) by lia. destruct (py_idx_get _ _ _ G0 G2) as [_ G3].
  eapply safe_bind; [apply run_len_safe; lia|]. intros me _ Hme. cbv beta in Hme.
  sstep; [apply safe_ok; cbn; lia|].
  eapply safe_weaken; [apply IH; lia|]. intros [[[ms' me']|] b'] _ Hr; cbn [fst] in *; [lia | exact I].
Qed.

Lemma r_backticks_safe silent : safe (r_backticks st silent) (kpr st).
Proof.
  unfold r_backticks. cbv zeta. spy. sstep; [apply kpr_same, HP|].
  eapply safe_bind; [apply run_len_safe; lia|]. intros pos _ Hpos. cbv beta in Hpos.
  assert (LS : len (slice (i_src st) (i_pos st) pos) = pos - i_pos st) by (apply len_slice; lia).
  (* the marker string goes to the pending text when no closer exists: a change the invariant does not see *)
  assert (T : forall s p, kps st s -> i_pos st < p -> kpr st (true, (if silent then s else s <| i_pending := i_pending s ++ slice (i_src st) (i_pos st) pos |>) <| i_pos := p |>)).
  { intros s p K L. apply kpr_move; [exact P0 | destruct silent; exact (proj1 K) | exact L]. }
  sstep; [apply safe_ok, T; [exact K0 | lia]|].
  eapply safe_bind; [apply bt_scan_safe; lia|]. intros [found bts] _ HF. cbn [fst] in HF.
  destruct found as [[ms me]|].
  - apply kpr_emit; [apply silent_push, K0 | intros; lia].
  - apply safe_ok, T; [exact K0 | cbn; lia].
Qed.

Lemma scan_delims_safe csw : safe (scan_delims st (i_pos st) csw) (fun r => 1 <= snd r).
Proof.
  unfold scan_delims. spy.
  eapply safe_bind with (Q := fun _ => True); [sstep; [apply safe_py_idx; lia | apply safe_ok; exact I]|]. intros lc _ _.
  (* the run starts on its own marker: its length is at least one *)
  cbn [run_len]. assert (X : (i_pos st <? i_posMax st) = true) by lia. rewrite X, Ec. cbn [bind]. rewrite Z.eqb_refl.
  eapply safe_bind; [apply run_len_safe; lia|]. intros pos _ Hpos. cbv beta in Hpos.
  eapply safe_bind with (Q := fun _ => True); [sstep; [apply safe_py_idx; lia | apply safe_ok; exact I]|]. intros nc _ _.
  cbv zeta. apply safe_ok. destruct csw; cbn [snd]; lia.
Qed.

Lemma r_strikethrough_safe silent : safe (r_strikethrough st silent) (kpr st).
Proof.
  unfold r_strikethrough. spy. destruct silent; [apply kpr_same, HP|]. sstep; [apply kpr_same, HP|].
  eapply safe_bind; [apply scan_delims_safe; assumption|]. intros [[op cl] n] _ Hn. cbn [snd] in Hn.
  sstep; [apply kpr_same, HP|].
  eapply safe_bind with (Q := kps st); [sstep; [apply ipush0_kps, K0 | exact K0]|]. intros st1 _ K1. cbv zeta.
  apply kpr_emit; [apply push_markers_safe, K1 | intros; lia].
Qed.

Lemma r_emphasis_safe silent : safe (r_emphasis st silent) (kpr st).
Proof.
  unfold r_emphasis. spy. destruct silent; [apply kpr_same, HP|]. sstep; [apply kpr_same, HP|].
  eapply safe_bind; [apply scan_delims_safe; assumption|]. intros [[op cl] n] _ Hn. cbn [snd] in Hn.
  apply kpr_emit; [apply push_markers_safe, K0 | intros; lia].
Qed.

Lemma autolink_end_safe : forall fuel pos mx, -1 <= pos -> mx <= len (i_src st) ->
  safe (autolink_end fuel (i_src st) pos mx) (fun _ => True).
Proof.
  induction fuel as [|f IH]; intros pos mx H0 H1; cbn [autolink_end]; [apply safe_ok; exact I|]. cbv zeta.
  sstep; [apply safe_ok; exact I|]. spy. sstep; [apply safe_ok; exact I|]. sstep; [apply safe_ok; exact I|]. apply IH; lia.
Qed.

Lemma r_autolink_safe rf lt silent : safe (r_autolink rf lt st silent) (kpr st).
Proof.
  unfold r_autolink. spy. sstep; [apply kpr_same, HP|].
  eapply safe_bind; [apply autolink_end_safe; lia|]. intros e _ _.
  destruct e as [pos|]; [|apply kpr_same, HP]. cbv zeta.
  pose proof (len_nonneg (slice (i_src st) (i_pos st + 1) pos)) as LU.
  sstep; [sstep; [apply kpr_same, HP|] | sstep; [sstep; [apply kpr_same, HP|] | apply kpr_same, HP]].
  all: apply kpr_emit; [destruct silent; [exact K0 | apply push_autolink_safe, HP] | intros; lia].
Qed.

Lemma r_html_inline_safe silent : safe (r_html_inline cfg st silent) (kpr st).
Proof.
  unfold r_html_inline. cbv zeta. sstep; [apply kpr_same, HP|]. spy. sstep; [apply kpr_same, HP|].
  spy. sstep; [apply kpr_same, HP|].
  destruct (match_at re_html_inline_HTML_TAG_RE (init_state (slice_from (i_src st) (i_pos st)))) as [e|] eqn:M; [|apply kpr_same, HP].
  apply (match_at_gt _ _ _ html_tag_nonempty) in M. cbn [init_state m_pos] in M.
  apply kpr_emit; [| intros; lia].
  destruct silent; [exact K0|]. cbv zeta.
  eapply safe_bind; [apply ipush0_kps, K0|]. intros s1 _ K. apply safe_ok.
  destruct (test re_utils_LINK_CLOSE_RE _), (test re_utils_LINK_OPEN_RE _); exact K.
Qed.

Lemma r_entity_safe silent : safe (r_entity st silent) (kpr st).
Proof.
  unfold r_entity. cbv zeta. spy. sstep; [apply kpr_same, HP|]. sstep; [apply kpr_same, HP|]. spy.
  sstep.
  - destruct (match_at re_entity_DIGITAL_RE (init_state (slice_from (i_src st) (i_pos st)))) as [e|] eqn:M; [|apply kpr_same, HP].
    apply (match_at_gt _ _ _ digital_nonempty) in M. cbn [init_state m_pos] in M.
    apply kpr_emit; [apply silent_push, K0 | intros; lia].
  - destruct (match_at re_entity_NAMED_RE (init_state (slice_from (i_src st) (i_pos st)))) as [e|] eqn:M; [|apply kpr_same, HP].
    apply (match_at_gt _ _ _ named_nonempty) in M. cbn [init_state m_pos] in M. cbv zeta.
    sstep; [|apply kpr_same, HP].
    apply kpr_emit; [apply silent_push, K0 | intros; lia].
Qed.

End One.
End SRules.

(* what the rules may ask of the callbacks: the nested tokenize keeps the frame; skipToken, called inside the
   range only, keeps it and moves the cursor forward; the nested parse of an image description does not raise
   (it works on a state of its own, so nothing of the caller's is at stake and its result is not looked at) *)
Definition FN (F : ifuncs) : Prop :=
  (forall st, PI st -> safe (f_tokenize F st) (kp st))
  /\ (forall st, PI st -> i_pos st < i_posMax st -> safe (f_skip F st) (fun st' => kp st st' /\ i_pos st < i_pos st'))
  /\ (forall src env, safe (f_parse F src env) (fun _ => True)).

Lemma at_is_safe src pos mx c : 0 <= pos -> mx <= len src -> safe (at_is src pos mx c) (fun _ => True).
Proof. intros H0 H1. unfold at_is. sstep; [|apply safe_ok; exact I]. spy. apply safe_ok. exact I. Qed.

Lemma skip_ws_nl_i_safe : forall fuel src pos mx, 0 <= pos -> mx <= len src -> safe (skip_ws_nl_i fuel src pos mx) (fun r => pos <= r).
Proof.
  induction fuel as [|f IH]; intros src pos mx H0 H1; cbn [skip_ws_nl_i]; [apply safe_ok; lia|].
  destruct (pos <? mx) eqn:E; [|apply safe_ok; lia]. spy. sstep; [|apply safe_ok; lia].
  eapply safe_weaken; [apply IH; lia|]. intros r _ Hr. cbv beta in Hr. lia.
Qed.

Section WithF.
Context (cfg : icfg) (rf cf : str -> str) (F : ifuncs) (HF : FN F).

(* what parseLinkLabel returns: the frame, the cursor back at oldPos, and -1 or the index of the closing bracket,
   which lies in [lo, posMax) *)
Definition lbl_post (st : istate) (oldPos lo : Z) (r : Z * istate) : Prop :=
  kp st (snd r) /\ i_pos (snd r) = oldPos /\ (fst r = -1 \/ lo <= fst r < i_posMax st).

Lemma label_loop_safe : forall fuel st level dn oldPos lo, PI st -> 0 <= oldPos -> lo <= i_pos st ->
  safe (label_loop F fuel st level dn oldPos) (lbl_post st oldPos lo).
Proof.
  induction fuel as [|f IH]; intros st level dn oldPos lo HP HO HLo; [exact I|]. cbn [label_loop].
  pose proof HP as (P0 & P1 & D).
  assert (KO : kp st (st <| i_pos := oldPos |>)) by (apply kp_setpos; [exact (kp_refl st HP) | exact HO]).
  sstep; [apply safe_ok; split; [exact KO|]; split; [reflexivity | left; reflexivity]|].
  spy. sstep; [apply safe_ok; split; [exact KO|]; split; [reflexivity | right; cbn; lia]|].
  cbv zeta. destruct HF as (_ & HS & _).
  eapply safe_bind; [apply HS; [exact HP | lia]|]. intros st1 _ (K1 & ADV).
  assert (REC : forall lv, safe (label_loop F f st1 lv dn oldPos) (lbl_post st oldPos lo)).
  { intros lv. eapply safe_weaken; [apply (IH st1 lv dn oldPos lo); [exact (proj1 K1) | exact HO | lia]|].
    intros [r s'] _ (A & B & C). split; [exact (kp_trans _ _ _ K1 A)|]. split; [exact B|].
    destruct K1 as (_ & _ & E & _). cbn [fst] in *. rewrite E in C. exact C. }
  sstep; [|apply REC]. sstep; [apply REC|]. sstep; [|apply REC].
  apply safe_ok. split; [apply kp_setpos; [exact K1 | exact HO]|]. split; [reflexivity | left; reflexivity].
Qed.

Lemma parse_link_label_safe st start dn : PI st -> 0 <= start + 1 ->
  safe (parse_link_label F st start dn) (lbl_post st (i_pos st) (start + 1)).
Proof.
  intros HP HS. unfold parse_link_label. pose proof HP as (P0 & P1 & D).
  assert (K : kp st (st <| i_pos := start + 1 |>)) by (apply kp_setpos; [exact (kp_refl st HP) | exact HS]).
  eapply safe_weaken; [apply (label_loop_safe _ _ _ _ _ (start + 1)); [exact (proj1 K) | exact P0 | cbn; lia]|].
  intros [r s'] _ (A & B & C). split; [exact (kp_trans _ _ _ K A)|]. split; [exact B | exact C].
Qed.

(* what the reference branch returns: the frame, the cursor where it was, and with a reference a position past lb *)
Definition ref_post (st : istate) (lb : Z) (r : option (str * str * str * Z) * istate) : Prop :=
  kp st (snd r) /\ i_pos (snd r) = i_pos st /\ match fst r with Some (_, _, _, p) => lb < p | None => True end.

Lemma ref_branch_safe st s pos ls le mx lb : kps st s -> 0 <= pos -> mx <= len (i_src s) -> lb <= pos -> lb <= le ->
  safe (ref_branch cf F s pos ls le mx) (ref_post st lb).
Proof.
  intros K H0 H1 H3 H4. unfold ref_branch.
  destruct (e_refs (i_env s)) as [refs|]; [|apply safe_ok; exact (conj (proj1 K) (conj (proj2 K) I))].
  eapply safe_bind; [apply at_is_safe; assumption|]. intros br _ _.
  eapply safe_bind with (Q := fun x => kps st (snd x) /\ lb < snd (fst x)).
  { destruct br; [|apply safe_ok; cbn; split; [exact K | lia]].
    eapply safe_bind; [apply parse_link_label_safe; [exact (proj1 (proj1 K)) | lia]|]. intros [p s'] _ (A & B & C). cbn [fst snd] in *.
    pose proof (kps_trans _ _ _ K (conj A B)) as K'.
    sstep; apply safe_ok; cbn; (split; [exact K' | lia]). }
  intros [[label0 pos1] st1] _ ([A B] & C). cbn [fst snd] in *. cbv zeta.
  sstep; apply safe_ok; (split; [exact A|]; split; [exact B|]); cbn; [|exact I].
  destruct r as []. exact C.
Qed.

(* "return False" after a label was found puts the cursor back *)
Lemma ref_none st lb s : PI st -> kp st s -> ref_post st lb (None, s <| i_pos := i_pos st |>).
Proof. intros HP K. split; [apply kp_setpos; [exact K | exact (proj1 HP)]|]. split; [reflexivity | exact I]. Qed.

(* the end of link and image: the cursor goes past the construct, posMax back to where it was *)
Lemma kpr_restore st s pos : PI st -> DI s -> i_src s = i_src st -> i_prev s = i_prev st -> i_pos st < pos ->
  kpr st (true, s <| i_pos := pos |> <| i_posMax := i_posMax st |>).
Proof.
  intros (P0 & P1 & _) D S PR L. split; [|split; [discriminate | intros _; exact L]]. cbn [snd].
  split; [|split; [exact S|]; split; [reflexivity | exact PR]].
  split; [cbn; lia|]. split; [cbn; rewrite S; exact P1 | exact D].
Qed.

Section R.
Context (st : istate) (HP : PI st) (HL : i_pos st < i_posMax st).
Let P0 : 0 <= i_pos st := proj1 HP.
Let P1 : i_posMax st <= len (i_src st) := proj1 (proj2 HP).

Lemma r_link_safe silent : safe (r_link cfg rf cf F st silent) (kpr st).
Proof.
  unfold r_link. cbv zeta. spy. sstep; [apply kpr_same, HP|].
  eapply safe_bind; [apply parse_link_label_safe; [exact HP | lia]|]. intros [labelEnd st0] _ (K0 & E0 & R0). cbn [fst snd] in *.
  sstep; [apply safe_ok, kpr_fail; exact (conj K0 E0)|].
  assert (LE : i_pos st + 1 <= labelEnd < i_posMax st) by lia.
  pose proof K0 as (HP0 & S0 & M0 & PR0). rewrite S0.
  eapply safe_bind; [apply at_is_safe; lia|]. intros paren _ _.
  eapply safe_bind with (Q := fun inlf => match inlf with Some (_, _, p, _) => i_pos st < p | None => True end).
  { destruct paren; [|apply safe_ok; lia].
    eapply safe_bind; [apply skip_ws_nl_i_safe; lia|]. intros p1 _ H1. cbv beta in H1.
    sstep; [apply safe_ok; exact I|]. cbv zeta.
    set (res := parse_link_destination (i_src st) p1 (i_posMax st0)).
    eapply safe_bind with (Q := fun x => i_pos st < snd x).
    { destruct (l_ok res) eqn:OK; [|apply safe_ok; cbn; lia]. cbv zeta.
      destruct (parse_link_destination_ge (i_src st) p1 (i_posMax st0) ltac:(lia) OK) as [G _]. fold res in G.
      match goal with |- safe (let '(_, _) := ?x in _) _ => destruct x as [href p] eqn:EP end.
      assert (PG : i_pos st < p) by (destruct (validate_link_re _); injection EP as _ <-; lia).
      eapply safe_bind; [apply skip_ws_nl_i_safe; lia|]. intros p' _ Hp'. cbv beta in Hp'. cbv zeta.
      set (tres := parse_link_title (i_src st) p' (i_posMax st0)).
      destruct ((p' <? i_posMax st) && negb (p =? p') && l_ok tres) eqn:TQ; [|apply safe_ok; cbn; lia].
      assert (TOK : l_ok tres = true) by (destruct (l_ok tres); [reflexivity | rewrite Bool.andb_false_r in TQ; discriminate TQ]).
      destruct (parse_link_title_lf (i_src st) p' (i_posMax st0) ltac:(lia) TOK) as [G2 _]. fold tres in G2.
      eapply safe_bind; [apply skip_ws_nl_i_safe; lia|]. intros p'' _ Hp''. cbv beta in Hp''. apply safe_ok. cbn. lia. }
    intros [[href title] p2] _ H2. cbn [snd] in H2.
    eapply safe_bind; [apply at_is_safe; lia|]. intros close _ _. apply safe_ok. lia. }
  intros inlf _ HI. destruct inlf as [[[[href0 title0] pos1] parseRef]|]; [|apply safe_ok, kpr_fail; exact (conj K0 E0)].
  eapply safe_bind with (Q := ref_post st (i_pos st)).
  { destruct parseRef; [|apply safe_ok; exact (conj K0 (conj E0 HI))].
    eapply safe_bind; [apply (ref_branch_safe st st0 _ _ _ _ (i_pos st) (conj K0 E0)); [lia | rewrite S0, <- M0; lia | lia | lia]|].
    intros [r st1] _ (A & B & C). cbn [fst snd] in *.
    destruct r as [[[[h t] l] p]|]; apply safe_ok; [exact (conj A (conj B C)) | exact (ref_none st _ st1 HP A)]. }
  intros [fin st1] _ (K1 & E1 & C1). cbn [fst snd] in *.
  destruct fin as [[[[href title] label] pos]|]; [|apply safe_ok, kpr_fail; exact (conj K1 E1)].
  pose proof K1 as (HP1 & S1 & M1 & PR1). pose proof HP1 as (X0 & X1 & D1).
  eapply safe_bind with (Q := fun st2 => DI st2 /\ i_src st2 = i_src st /\ i_prev st2 = i_prev st).
  { destruct silent; [apply safe_ok; split; [exact D1|]; split; [exact S1 | exact PR1]|].
    assert (HPA : PI (st1 <| i_pos := i_pos st + 1 |> <| i_posMax := labelEnd |>)).
    { split; [cbn; lia|]. split; [cbn; rewrite S1; lia | exact D1]. }
    eapply safe_bind; [apply ipush1_safe; exact HPA|]. intros s1 _ (A1 & A2 & A3 & A4 & A5).
    destruct HF as (HT & _ & _).
    (* the link level is a field the invariant does not read *)
    eapply safe_bind; [apply HT; exact A1|]. intros s2 _ (T1 & T2 & T3 & T4). cbn in T2, T3, T4.
    eapply safe_weaken; [eapply ipushm1_safe; [exact T1 | cbn; rewrite T4, A5; reflexivity]|].
    intros s3 _ (C1' & C2 & C3 & C4 & C5). cbn in C2, C5.
    split; [exact (proj2 (proj2 C1'))|]. split; [rewrite C2, T2, A2; cbn; exact S1 | rewrite C5; exact PR1]. }
  intros st2 _ (D2 & S2 & PR2). apply safe_ok, kpr_restore; assumption.
Qed.

Lemma r_image_safe silent : safe (r_image cfg rf cf F st silent) (kpr st).
Proof.
  unfold r_image. cbv zeta. spy. sstep; [apply kpr_same, HP|].
  eapply safe_bind with (Q := fun _ => True).
  { sstep; [|apply safe_ok; exact I]. spy. apply safe_ok. exact I. }
  intros nb _ _. destruct nb; [apply kpr_same, HP|].
  eapply safe_bind; [apply parse_link_label_safe; [exact HP | lia]|]. intros [labelEnd st0] _ (K0 & E0 & R0). cbn [fst snd] in *.
  sstep; [apply safe_ok, kpr_fail; exact (conj K0 E0)|].
  assert (LE : i_pos st + 2 <= labelEnd < i_posMax st) by lia.
  pose proof K0 as (HP0 & S0 & M0 & PR0). rewrite S0.
  eapply safe_bind; [apply at_is_safe; lia|]. intros paren _ _.
  eapply safe_bind with (Q := ref_post st (i_pos st)).
  { destruct paren.
    - eapply safe_bind; [apply skip_ws_nl_i_safe; lia|]. intros p1 _ H1. cbv beta in H1.
      sstep; [apply safe_ok; exact (conj K0 (conj E0 I))|]. cbv zeta.
      set (res := parse_link_destination (i_src st) p1 (i_posMax st0)).
      match goal with |- safe (let '(_, _) := ?x in _) _ => destruct x as [href p] eqn:EP end.
      assert (PG : i_pos st < p).
      { destruct (l_ok res) eqn:OK; [|injection EP as _ <-; lia].
        destruct (parse_link_destination_ge (i_src st) p1 (i_posMax st0) ltac:(lia) OK) as [G _]. fold res in G.
        destruct (validate_link_re _); injection EP as _ <-; lia. }
      eapply safe_bind; [apply skip_ws_nl_i_safe; lia|]. intros p' _ Hp'. cbv beta in Hp'. cbv zeta.
      set (tres := parse_link_title (i_src st) p' (i_posMax st0)).
      eapply safe_bind with (Q := fun x => i_pos st < snd x).
      { destruct ((p' <? i_posMax st) && negb (p =? p') && l_ok tres) eqn:TQ; [|apply safe_ok; cbn; lia].
        assert (TOK : l_ok tres = true) by (destruct (l_ok tres); [reflexivity | rewrite Bool.andb_false_r in TQ; discriminate TQ]).
        destruct (parse_link_title_lf (i_src st) p' (i_posMax st0) ltac:(lia) TOK) as [G2 _]. fold tres in G2.
        eapply safe_bind; [apply skip_ws_nl_i_safe; lia|]. intros p'' _ Hp''. cbv beta in Hp''. apply safe_ok. cbn. lia. }
      intros [title p2] _ H2. cbn [snd] in H2.
      eapply safe_bind; [apply at_is_safe; lia|]. intros close _ _.
      destruct close; apply safe_ok; [split; [exact K0|]; split; [exact E0 | cbn; lia] | exact (ref_none st _ st0 HP K0)].
    - eapply safe_bind; [apply (ref_branch_safe st st0 _ _ _ _ (i_pos st) (conj K0 E0)); [lia | rewrite S0, <- M0; lia | lia | lia]|].
      intros [r st1] _ (A & B & C). cbn [fst snd] in *.
      destruct r as [[[[h t] l] p]|]; apply safe_ok; [exact (conj A (conj B C))|].
      destruct (e_refs (i_env st0)); [exact (ref_none st _ st1 HP A) | exact (conj A (conj B I))]. }
  intros [fin st1] _ (K1 & E1 & C1). cbn [fst snd] in *.
  destruct fin as [[[[href title] label] pos]|]; [|apply safe_ok, kpr_fail; exact (conj K1 E1)].
  eapply safe_bind with (Q := fun st2 => kp st st2).
  { destruct silent; [apply safe_ok; exact K1|]. cbv zeta.
    destruct HF as (_ & _ & HPa).
    eapply safe_bind; [apply HPa|]. intros toks _ _.
    eapply safe_weaken; [apply ipush0_kps; exact (conj K1 E1)|]. intros a _ (K & _). exact K. }
  intros st2 _ ((_ & _ & D2) & S2 & _ & PR2). apply safe_ok, kpr_restore; assumption.
Qed.

End R.
End WithF.

Lemma Forall_zset (P : Z * Z -> Prop) k v : P (k, v) -> forall m, Forall P m -> Forall P (zset k v m).
Proof.
  intros Hv. induction m as [|[a b] m IH]; intros H; cbn [zset]; [constructor; [exact Hv | constructor]|].
  inversion H as [|x y Hx Hy]; subst. destruct (k =? a); constructor; try assumption. apply IH. exact Hy.
Qed.
Lemma zlookup_spec (P : Z * Z -> Prop) k v : forall m, Forall P m -> zlookup k m = Some v -> P (k, v).
Proof.
  induction m as [|[a b] m IH]; intros H E; cbn [zlookup] in E; [discriminate|].
  inversion H as [|x y Hx Hy]; subst. destruct (k =? a) eqn:KA; [|exact (IH Hy E)].
  apply Z.eqb_eq in KA. subst a. injection E as <-. exact Hx.
Qed.

Section Parser.
Context (cfg : icfg) (rf cf lt : str -> str).
Context (NOLINKIFY : ic_linkify cfg = false).

Lemma iapply_safe F (HF : FN F) name st silent : PI st -> i_pos st < i_posMax st ->
  safe (iapply cfg rf cf lt F name st silent) (kpr st).
Proof.
  intros HP HL. unfold iapply. repeat sstep; [..|exact (kpr_fail _ _ (kps_refl st HP))].
  all: eauto using r_text_safe, r_linkify_safe, r_newline_safe, r_escape_safe, r_backticks_safe, r_strikethrough_safe,
         r_emphasis_safe, r_link_safe, r_image_safe, r_autolink_safe, r_html_inline_safe, r_entity_safe.
Qed.

Lemma first_rule_safe F (HF : FN F) : forall names st silent bump, PI st -> i_pos st < i_posMax st ->
  safe (first_rule cfg rf cf lt F names st silent bump) (kpr st).
Proof.
  induction names as [|n names IH]; intros st silent bump HP HL; cbn [first_rule]; [apply kpr_same, HP|]. cbv zeta.
  (* the nesting level raised around each call is a change the invariant does not see *)
  assert (LV : forall s v, kps st s -> kps st (if bump then s <| i_level := v |> else s))
    by (intros s v K; destruct bump; exact K).
  pose proof (LV st (i_level st + 1) (kps_refl st HP)) as [K0 E0]. set (st0 := if bump then _ else st) in *.
  eapply safe_bind; [apply (iapply_safe F HF n st0 silent); [exact (proj1 K0) | destruct K0 as (_ & _ & M & _); lia]|].
  intros [ok st1] _ (K1 & F1 & G1). cbn [fst snd] in *. pose proof (kp_trans _ _ _ K0 K1) as K.
  destruct ok.
  - apply safe_ok. specialize (G1 eq_refl). split; [|split; [discriminate | intros _; cbn [snd]; destruct bump; cbn; lia]].
    destruct bump; exact K.
  - pose proof (LV st1 (i_level st1 - 1) (conj K (eq_trans (F1 eq_refl) E0))) as K2. set (st2 := if bump then _ else st1) in *.
    eapply safe_weaken; [apply IH; [exact (proj1 (proj1 K2)) | destruct K2 as ((_ & _ & M & _) & E); lia]|].
    intros [ok' st3] _ (K3 & F3 & G3). cbn [fst snd] in *. destruct K2 as [K2 E2]. split; [exact (kp_trans _ _ _ K2 K3)|]. cbn [fst snd].
    split; [intros X; rewrite (F3 X); exact E2 | intros X; specialize (G3 X); lia].
Qed.

Lemma skip_token_safe F (HF : FN F) st : PI st -> i_pos st < i_posMax st ->
  safe (skip_token cfg rf cf lt F st) (fun st' => kp st st' /\ i_pos st < i_pos st').
Proof.
  intros HP HL. unfold skip_token. cbv zeta. pose proof HP as (P0 & P1 & DDs & CAs).
  destruct (zlookup (i_pos st) (i_cache st)) as [p|] eqn:Z.
  { destruct (zlookup_spec _ _ _ _ CAs Z) as [Z1 Z2]. cbn in Z1, Z2. apply safe_ok. split; [apply kp_setpos; [exact (kp_refl st HP) | exact Z1] | cbn; exact Z2]. }
  eapply safe_bind with (Q := fun r => kp st (snd r) /\ (fst r = true -> i_pos st < i_pos (snd r)) /\ i_pos st <= i_pos (snd r)).
  { sstep.
    - eapply safe_weaken; [apply first_rule_safe; assumption|]. intros [ok a] _ (K & Fa & Ga). cbn [fst snd] in *.
      split; [exact K|]. split; [exact Ga|]. destruct ok; [specialize (Ga eq_refl); lia | rewrite (Fa eq_refl); lia].
    - apply safe_ok. cbn [fst snd]. split; [apply kp_setpos; [exact (kp_refl st HP) | lia]|]. split; [discriminate | cbn; lia]. }
  intros [ok st1] _ (K1 & G1 & L1). cbn [fst snd] in *. apply safe_ok.
  set (st2 := if ok then st1 else st1 <| i_pos := i_pos st1 + 1 |>).
  assert (K2 : kp st st2 /\ i_pos st < i_pos st2).
  { unfold st2. destruct ok; [split; [exact K1 | exact (G1 eq_refl)]|]. split; [apply kp_setpos; [exact K1|]; lia | cbn; lia]. }
  destruct K2 as [((X0 & X1 & XD & XC) & E) ADV]. split; [|exact ADV].
  (* the memo entry written is a position past the cursor *)
  split; [|exact E]. split; [exact X0|]. split; [exact X1|]. split; [exact XD|]. apply Forall_zset; [exact (conj X0 ADV) | exact XC].
Qed.

Lemma tok_while_safe F (HF : FN F) st : forall fuel s endp ok, kp st s -> endp = i_posMax s ->
  safe (tok_while cfg rf cf lt fuel F s endp ok) (kp st).
Proof.
  induction fuel as [|f IH]; intros s endp ok K EE; [exact I|]. cbn [tok_while]. subst endp.
  sstep; [apply safe_ok; exact K|]. pose proof (proj1 K) as HP.
  assert (HL : i_pos s < i_posMax s) by lia.
  eapply safe_bind with (Q := fun r => kp s (snd r) /\ (fst r = false -> i_pos (snd r) = i_pos s)).
  { sstep; [eapply safe_weaken; [apply first_rule_safe; assumption | intros a _ (K1 & Fa & _); split; assumption]|].
    apply safe_ok. split; [apply kp_refl; exact HP | intros _; reflexivity]. }
  intros [ok1 s1] _ (K1 & F1). cbn [fst snd] in *. pose proof (kp_trans _ _ _ K K1) as K'. pose proof K1 as (HP1 & _ & M1 & _).
  destruct ok1.
  - sstep; [apply safe_ok; exact K'|]. apply IH; [exact K' | congruence].
  - (* no rule took the character: it goes to the pending text *)
    specialize (F1 eq_refl). destruct HP1 as (Y0 & Y1 & _).
    eapply safe_bind; [apply safe_py_idx; lia|]. intros c _ _.
    apply IH; [|cbn; congruence]. apply (kp_setpos st (s1 <| i_pending := i_pending s1 ++ [c] |>)); [exact K' | lia].
Qed.

Lemma inline_tokenize_safe F (HF : FN F) st : PI st -> safe (inline_tokenize cfg rf cf lt F st) (kp st).
Proof.
  intros HP. unfold inline_tokenize.
  eapply safe_bind; [apply tok_while_safe; [exact HF | exact (kp_refl st HP) | reflexivity]|]. intros st1 _ K1. apply safe_ok.
  destruct (flush_kp st1 (proj1 K1)) as ((K2 & _) & _). exact (kp_trans _ _ _ K1 K2).
Qed.

End Parser.

Lemma upd_nth_l_length {A} (f : A -> A) : forall n (l : list A), length (upd_nth_l n f l) = length l.
Proof. unfold upd_nth_l. induction n as [|n IH]; intros [|a l]; cbn; try reflexivity. rewrite IH. reflexivity. Qed.
Lemma upd_nth_l_nth {A} (f : A -> A) : forall n (l : list A) k,
  nth_error (upd_nth_l n f l) k = if Nat.eqb k n then option_map f (nth_error l n) else nth_error l k.
Proof.
  unfold upd_nth_l. induction n as [|n IH]; intros [|a l] k; cbn.
  - destruct (Nat.eqb k 0); destruct k; reflexivity.
  - destruct k; reflexivity.
  - destruct (Nat.eqb k (S n)); destruct k; reflexivity.
  - destruct k as [|k]; [reflexivity|]. cbn. apply IH.
Qed.

Lemma dget_wrap_safe ds i : - len ds <= i < len ds -> safe (dget ds i) (fun d => In d ds).
Proof. intros H. eapply safe_weaken; [exact (read_safe ds i H) | intros d _ [I _]; exact I]. Qed.
Lemma dget_safe ds i : 0 <= i < len ds -> safe (dget ds i) (fun d => In d ds).
Proof. intros H. apply dget_wrap_safe. lia. Qed.
Lemma jget_safe l i : 0 <= i < len l -> safe (jget l i) (fun v => nth_error l (Z.to_nat i) = Some v).
Proof. intros H. eapply safe_weaken; [apply (read_safe l i); lia | intros v _ [_ N]; apply N; lia]. Qed.

(* the jump table: one entry per processed delimiter, each between 0 and its own index *)
Definition JI (jumps : list Z) (c : Z) : Prop :=
  len jumps = c /\ forall i v, nth_error jumps i = Some v -> 0 <= v <= Z.of_nat i.

Lemma JI_snoc jumps c : JI jumps c -> JI (jumps ++ [0]) (c + 1).
Proof.
  intros [L H]. split; [rewrite len_snoc; lia|]. intros i v E.
  destruct (Nat.lt_ge_cases i (length jumps)) as [Lt|Ge].
  - rewrite nth_error_app1 in E by exact Lt. exact (H i v E).
  - rewrite nth_error_app2 in E by exact Ge. destruct (i - length jumps)%nat as [|k]; cbn in E; [injection E as <-; lia | destruct k; discriminate].
Qed.
Lemma JI_jset jumps c i v : JI jumps c -> 0 <= i -> 0 <= v <= i -> JI (jset jumps i v) c.
Proof.
  intros [L H] Hi Hv. unfold jset. split; [unfold len in *; rewrite upd_nth_l_length; exact L|].
  intros k w E. rewrite upd_nth_l_nth in E. destruct (Nat.eqb k (Z.to_nat i)) eqn:K.
  - apply Nat.eqb_eq in K. subst k. destruct (nth_error jumps (Z.to_nat i)); cbn in E; [injection E as <-; lia | discriminate].
  - exact (H k w E).
Qed.

(* the lower bounds kept per marker are indices or -1 *)
Definition OB (ob : list (Z * list Z)) : Prop := forall m a, In (m, a) ob -> Forall (Z.le (-1)) a.
Lemma OB_nil : OB [].
Proof. intros m a []. Qed.
Lemma OB_get ob m idx : OB ob -> -1 <= ob_get ob m idx.
Proof.
  intros H. unfold ob_get. destruct (find _ ob) as [[x a]|] eqn:F; [|lia].
  apply find_some in F. pose proof (H x a (proj1 F)) as Ha. rewrite Forall_forall in Ha.
  destruct (nth_in_or_default (Z.to_nat idx) a (-1)) as [I | ->]; [exact (Ha _ I) | lia].
Qed.
Lemma find_filter_none {A} (p : A -> bool) l : find p (filter (fun x => negb (p x)) l) = None.
Proof. induction l as [|a l IH]; cbn; [reflexivity|]. destruct (p a) eqn:E; cbn; [exact IH | rewrite E; exact IH]. Qed.
Lemma OB_set ob m idx v : OB ob -> -1 <= v -> OB (ob_set ob m idx v).
Proof.
  intros H Hv m' a [E|I]; [|apply filter_In in I; exact (H m' a (proj1 I))].
  injection E as _ <-. apply In_upd_nth_l_P; [intros _ _; exact Hv|].
  destruct (find _ ob) as [[x a0]|] eqn:F; [apply find_some in F; exact (H x a0 (proj1 F)) | repeat constructor; lia].
Qed.

Lemma find_opener_d_safe ds jumps closer c : JI jumps c -> c <= len ds ->
  forall fuel o mn, o < c -> -1 <= mn ->
  safe (find_opener_d fuel ds jumps closer o mn) (fun r => match r with Some x => mn < x <= o | None => True end).
Proof.
  intros [JL JH] CL. induction fuel as [|f IH]; intros o mn Ho Hm; cbn [find_opener_d]; [apply safe_ok; exact I|].
  sstep; [apply safe_ok; exact I|].
  eapply safe_bind; [apply dget_safe; lia|]. intros opener _ _.
  eapply safe_bind; [apply jget_safe; lia|]. intros j _ Hj. apply JH in Hj.
  assert (REC : safe (find_opener_d f ds jumps closer (o - (j + 1)) mn) (fun r => match r with Some x => mn < x <= o | None => True end)).
  { eapply safe_weaken; [apply IH; lia|]. intros [x|] _ Hx; [lia | exact I]. }
  sstep; [exact REC|]. sstep; [|exact REC]. cbv zeta. sstep; [apply safe_ok; lia | exact REC].
Qed.

(* what balance_pairs establishes for a delimiter list of length n pointing into N tokens *)
Definition DQ (N n : Z) (d : delim) : Prop := 0 <= d_token d < N /\ (d_end d = -1 \/ 0 <= d_end d < n).

Lemma dupd_len ds i f : len (dupd ds i f) = len ds.
Proof. unfold dupd, len. rewrite upd_nth_l_length. reflexivity. Qed.

Lemma pd_loop_safe N : forall fuel ds jumps ob c h lt,
  JI jumps c -> OB ob -> 0 <= h <= c -> Forall (DQ N (len ds)) ds ->
  safe (pd_loop fuel ds jumps ob c h lt) (fun ds' => len ds' = len ds /\ Forall (DQ N (len ds)) ds').
Proof.
  induction fuel as [|f IH]; intros ds jumps ob c h lt HJ HO Hh HD; cbn [pd_loop]; [apply safe_ok; split; [reflexivity | exact HD]|].
  sstep; [apply safe_ok; split; [reflexivity | exact HD]|].
  eapply safe_bind; [apply dget_safe; lia|]. intros closer _ _. cbv zeta.
  pose proof (JI_snoc _ _ HJ) as HJ1. set (jumps1 := jumps ++ [0]) in *.
  eapply safe_bind; [apply dget_safe; lia|]. intros header _ _.
  set (h1 := if negb (d_marker header =? d_marker closer) || negb (lt =? d_token closer - 1) then c else h).
  assert (Hh1 : 0 <= h1 <= c) by (unfold h1; destruct (_ || _); lia).
  sstep; [apply IH; try assumption; lia|].
  pose proof (OB_get ob (d_marker closer) ((if d_open closer then 3 else 0) + d_length closer mod 3) HO) as HM.
  set (mn := ob_get ob (d_marker closer) ((if d_open closer then 3 else 0) + d_length closer mod 3)) in *.
  eapply safe_bind; [apply jget_safe; destruct HJ1 as [L _]; lia|]. intros jh _ Hjh. apply (proj2 HJ1) in Hjh.
  eapply safe_bind; [apply (find_opener_d_safe ds jumps1 closer (c + 1) HJ1); lia|]. intros m _ Hm.
  destruct m as [o|].
  - eapply safe_bind with (Q := fun lj => 0 <= lj <= o).
    { sstep; [|apply safe_ok; lia]. eapply safe_bind; [apply dget_safe; lia|]. intros prev _ _.
      sstep; [|apply safe_ok; lia]. eapply safe_bind; [apply jget_safe; destruct HJ1 as [L _]; lia|]. intros jp _ Hjp.
      apply (proj2 HJ1) in Hjp. apply safe_ok. lia. }
    intros lj _ Hlj.
    eapply safe_weaken; [apply IH|].
    + apply JI_jset; [apply JI_jset; [exact HJ1 | lia | lia] | lia | lia].
    + apply OB_set; [exact HO | exact HM].
    + lia.
    + rewrite !dupd_len. unfold dupd. apply In_upd_nth_l_P; [|apply In_upd_nth_l_P; [|exact HD]].
      * intros x [A B]. split; [exact A | right; cbn; lia].
      * intros x [A B]. split; [exact A | exact B].
    + intros ds' _ [A B]. rewrite !dupd_len in A, B. split; [exact A | exact B].
  - apply IH; try assumption; [|lia].
    match goal with |- OB (if ?b then _ else _) => destruct b end; apply OB_set; try assumption; lia.
Qed.

Lemma process_delimiters_safe N ds : Forall (DQ N (len ds)) ds ->
  safe (process_delimiters ds) (fun ds' => len ds' = len ds /\ Forall (DQ N (len ds)) ds').
Proof.
  intros H. unfold process_delimiters. destruct ds as [|d ds]; [apply safe_ok; split; [reflexivity | exact H]|].
  apply pd_loop_safe; [split; [reflexivity | intros i v E; destruct i; discriminate E] | exact OB_nil | lia | exact H].
Qed.

Lemma tget_safe tokens i : - len tokens <= i < len tokens -> safe (tget tokens i) (fun _ => True).
Proof. intros H. eapply safe_weaken; [exact (read_safe tokens i H) | intros; exact I]. Qed.
Lemma tupd_len tokens i f : len (tupd tokens i f) = len tokens.
Proof. unfold tupd, update_nth_tok', len. cbv zeta. rewrite upd_nth_l_length. reflexivity. Qed.

(* a lone-marker index, the token before a closer: [d_token ed - 1], of which DQ gives -1 as the lower bound;
   tokens[-1] is a legal wrap-around read because the token list is not empty *)
Definition LN (N x : Z) : Prop := -1 <= x < N /\ 0 < N.

Lemma dget_DQ N ds i : Forall (DQ N (len ds)) ds -> 0 <= i < len ds -> safe (dget ds i) (DQ N (len ds)).
Proof. intros H Hi. eapply safe_weaken; [apply dget_safe; exact Hi|]. intros d _ I. rewrite Forall_forall in H. exact (H d I). Qed.

Lemma st_pass1_safe N : forall fuel ds tokens i lone, len tokens = N -> Forall (DQ N (len ds)) ds -> 0 <= i ->
  Forall (LN N) lone ->
  safe (st_pass1 fuel ds tokens i lone) (fun r => len (fst r) = N /\ Forall (LN N) (snd r)).
Proof.
  induction fuel as [|f IH]; intros ds tokens i lone HN HD Hi HLo; cbn [st_pass1]; [apply safe_ok; split; assumption|].
  sstep; [apply safe_ok; split; assumption|].
  eapply safe_bind; [apply (dget_DQ N); [exact HD | lia]|]. intros sd _ [T1 E1].
  sstep; [apply IH; try assumption; lia|].
  assert (EV : 0 <= d_end sd < len ds) by lia.
  eapply safe_bind; [apply (dget_DQ N); [exact HD | exact EV]|]. intros ed _ [T2 _].
  eapply safe_bind; [apply tget_safe; lia|]. intros _t1 _ _. cbv zeta.
  eapply safe_bind; [apply tget_safe; rewrite tupd_len; lia|]. intros _t2 _ _.
  eapply safe_bind; [apply tget_safe; rewrite !tupd_len; lia|]. intros before _ _.
  apply IH; [rewrite !tupd_len; exact HN | exact HD | lia|].
  destruct (_ && _); [|exact HLo]. apply Forall_app. split; [exact HLo|]. constructor; [split; lia | constructor].
Qed.

Lemma count_s_close_bound : forall fuel tokens j, j <= count_s_close fuel tokens j /\ (count_s_close fuel tokens j <= len tokens \/ count_s_close fuel tokens j = j).
Proof.
  induction fuel as [|f IH]; intros tokens j; cbn [count_s_close]; [lia|].
  destruct (j <? len tokens) eqn:E; [|lia]. destruct (nth_error tokens (Z.to_nat j)); [|lia].
  destruct (str_eqb _ _); [|lia]. specialize (IH tokens (j + 1)). lia.
Qed.

Lemma st_pass2_safe N : forall lone tokens, len tokens = N -> Forall (LN N) lone ->
  safe (st_pass2 lone tokens) (fun t => len t = N).
Proof.
  induction lone as [|i rest IH]; intros tokens HN HL; cbn [st_pass2]; [apply safe_ok; exact HN|]. cbv zeta.
  inversion HL as [|x y [Hx H0] Hy]; subst.
  pose proof (count_s_close_bound (S (length tokens)) tokens (i + 1)) as [B1 B2].
  set (j := count_s_close (S (length tokens)) tokens (i + 1) - 1) in *.
  sstep; [|apply IH; [reflexivity | exact Hy]].
  eapply safe_bind; [apply tget_safe; lia|]. intros ti _ _.
  eapply safe_bind; [apply tget_safe; lia|]. intros tj _ _.
  apply IH; [rewrite !tupd_len; reflexivity | exact Hy].
Qed.

Lemma strike_post_safe N ds tokens : len tokens = N -> Forall (DQ N (len ds)) ds ->
  safe (strike_post ds tokens) (fun t => len t = N).
Proof.
  intros HN HD. unfold strike_post.
  eapply safe_bind; [apply (st_pass1_safe N); [exact HN | exact HD | lia | constructor]|]. intros [tokens1 lone] _ [A B]. cbn [fst snd] in *.
  apply st_pass2_safe; [exact A|]. apply Forall_rev. exact B.
Qed.

Lemma em_pass_safe N : forall fuel ds tokens i, len tokens = N -> Forall (DQ N (len ds)) ds -> i < len ds ->
  safe (em_pass fuel ds tokens i) (fun t => len t = N).
Proof.
  induction fuel as [|f IH]; intros ds tokens i HN HD Hi; cbn [em_pass]; [apply safe_ok; exact HN|].
  sstep; [apply safe_ok; exact HN|].
  eapply safe_bind; [apply (dget_DQ N); [exact HD | lia]|]. intros sd _ [T1 E1].
  sstep; [apply IH; try assumption; lia|].
  assert (EV : 0 <= d_end sd < len ds) by lia.
  eapply safe_bind; [apply (dget_DQ N); [exact HD | exact EV]|]. intros ed _ [T2 _].
  eapply safe_bind with (Q := fun b => b = true -> 0 < i /\ d_end sd + 1 < len ds).
  { sstep; [|apply safe_ok; discriminate]. eapply safe_bind; [apply (dget_DQ N); [exact HD | lia]|]. intros p _ [_ EP].
    sstep; [|apply safe_ok; discriminate].
    eapply safe_bind; [apply dget_safe; lia|]. intros q _ _. apply safe_ok. intros _. lia. }
  intros isStrong _ HS. cbv zeta.
  eapply safe_bind; [apply tget_safe; lia|]. intros _t1 _ _.
  eapply safe_bind; [apply tget_safe; rewrite tupd_len; lia|]. intros _t2 _ _.
  destruct isStrong; [|apply IH; [rewrite !tupd_len; exact HN | exact HD | lia]].
  destruct (HS eq_refl) as [S1 S2].
  eapply safe_bind; [apply (dget_DQ N); [exact HD | lia]|]. intros p _ [TP _].
  eapply safe_bind; [apply (dget_DQ N); [exact HD | lia]|]. intros q _ [TQ _].
  eapply safe_bind; [apply tget_safe; rewrite !tupd_len; lia|]. intros _a _ _.
  eapply safe_bind; [apply tget_safe; rewrite !tupd_len; lia|]. intros _b _ _.
  apply IH; [rewrite !tupd_len; exact HN | exact HD | lia].
Qed.

Definition D1 (st : istate) : Prop := forall l, In l (i_dstore st) -> Forall (DQ (len (i_tokens st)) (len l)) l.

Lemma D1_nth st id : D1 st -> Forall (DQ (len (i_tokens st)) (len (nth id (i_dstore st) []))) (nth id (i_dstore st) []).
Proof.
  intros H. destruct (Nat.lt_ge_cases id (length (i_dstore st))) as [L|G].
  - apply H. apply nth_In. exact L.
  - rewrite nth_overflow by exact G. constructor.
Qed.

Lemma each_meta_safe (f : istate -> nat -> res istate) (INV : istate -> Prop)
      (Hf : forall s id, INV s -> safe (f s id) INV) : forall metas st, INV st -> safe (each_meta f metas st) INV.
Proof.
  induction metas as [|[id|] rest IH]; intros st H; cbn [each_meta]; [apply safe_ok; exact H| |apply IH; exact H].
  eapply safe_bind; [apply Hf; exact H|]. intros st' _ H'. apply IH. exact H'.
Qed.
Lemma on_all_delims_safe (f : istate -> nat -> res istate) (INV : istate -> Prop)
      (Hf : forall s id, INV s -> safe (f s id) INV) st : INV st -> safe (on_all_delims f st) INV.
Proof.
  intros H. unfold on_all_delims. eapply safe_bind; [apply Hf; exact H|]. intros st1 _ H1.
  (* the meta list walked is the one of the state before the first call *)
  apply each_meta_safe; assumption.
Qed.

Lemma r2_balance_pairs_safe st : D1 st -> safe (r2_balance_pairs st) D1.
Proof.
  intros H. unfold r2_balance_pairs. apply on_all_delims_safe; [|exact H]. clear st H. intros s id H.
  eapply safe_bind; [apply (process_delimiters_safe (len (i_tokens s))); apply D1_nth; exact H|]. intros ds _ [A B].
  apply safe_ok. intros l Hl. cbn in Hl. apply In_upd_nth_l in Hl. destruct Hl as [I|(y & I & ->)]; [exact (H l I)|].
  cbn. rewrite A. exact B.
Qed.

Lemma r2_strikethrough_safe st : D1 st -> safe (r2_strikethrough st) D1.
Proof.
  intros H. unfold r2_strikethrough. apply on_all_delims_safe; [|exact H]. clear st H. intros s id H.
  eapply safe_bind; [apply (strike_post_safe (len (i_tokens s))); [reflexivity | apply D1_nth; exact H]|]. intros ts _ A.
  apply safe_ok. intros l Hl. cbn in *. rewrite A. exact (H l Hl).
Qed.

Lemma r2_emphasis_safe st : D1 st -> safe (r2_emphasis st) D1.
Proof.
  intros H. unfold r2_emphasis. apply on_all_delims_safe; [|exact H]. clear st H. intros s id H. cbv zeta.
  eapply safe_bind; [apply (em_pass_safe (len (i_tokens s))); [reflexivity | apply D1_nth; exact H | lia]|]. intros ts _ A.
  apply safe_ok. intros l Hl. cbn in *. rewrite A. exact (H l Hl).
Qed.

Definition pair_rule (n : str) : bool := str_eqb n n_balance_pairs || str_eqb n n_strikethrough || str_eqb n n_emphasis.
(* the order of the post-processing chain: nothing that reads delimiters runs after fragments_join, which drops
   tokens and so leaves every [d_token] pointing at the wrong token or past the end *)
Fixpoint order_ok (names : list str) : bool :=
  match names with
  | [] => true
  | n :: r => if str_eqb n n_fragments_join then forallb (fun m => negb (pair_rule m)) r else order_ok r
  end.

Lemma run_rules2_tail_safe : forall names st, forallb (fun m => negb (pair_rule m)) names = true ->
  safe (run_rules2 names st) (fun _ => True).
Proof.
  induction names as [|n r IH]; intros st H; cbn [run_rules2]; [apply safe_ok; exact I|].
  cbn [forallb] in H. apply Bool.andb_true_iff in H. destruct H as [H1 H2].
  unfold pair_rule in H1. unfold iapply2.
  destruct (str_eqb n n_balance_pairs); [discriminate H1|]. destruct (str_eqb n n_strikethrough); [discriminate H1|].
  destruct (str_eqb n n_emphasis); [discriminate H1|].
  destruct (str_eqb n n_fragments_join); cbn [bind r2_fragments_join]; apply IH; exact H2.
Qed.

Lemma iapply2_safe n st : D1 st -> safe (iapply2 n st) (fun st' => str_eqb n n_fragments_join = false -> D1 st').
Proof.
  intros HD. unfold iapply2. repeat sstep; [..|intros _; exact HD].
  - eapply safe_weaken; [apply r2_balance_pairs_safe; exact HD | intros st' _ H _; exact H].
  - eapply safe_weaken; [apply r2_strikethrough_safe; exact HD | intros st' _ H _; exact H].
  - eapply safe_weaken; [apply r2_emphasis_safe; exact HD | intros st' _ H _; exact H].
  - intros X. rewrite X in *. discriminate.
Qed.

Lemma run_rules2_safe : forall names st, order_ok names = true -> D1 st -> safe (run_rules2 names st) (fun _ => True).
Proof.
  induction names as [|n r IH]; intros st H HD; cbn [run_rules2]; [apply safe_ok; exact I|].
  cbn [order_ok] in H. eapply safe_bind; [apply iapply2_safe; exact HD|]. intros st' _ HD'.
  destruct (str_eqb n n_fragments_join); [apply run_rules2_tail_safe; exact H | apply IH; [exact H | exact (HD' eq_refl)]].
Qed.

Section Knot.
Context (cfg : icfg) (rf cf lt : str -> str).
Context (NOLINKIFY : ic_linkify cfg = false) (ORDER : order_ok (ic_rules2 cfg) = true).

Lemma PI_init src env tokens : PI (istate_init src env tokens).
Proof.
  unfold istate_init. split; [cbn; lia|]. split; [cbn; lia|]. split; [|constructor].
  intros l Hl d Hd. cbn in Hl. destruct Hl as [<-|[]]. contradiction Hd.
Qed.

Lemma PI_D1 st : PI st -> D1 st.
Proof.
  intros (_ & _ & DDs & _) l Hl. apply Forall_forall. intros d Hd. destruct (DDs l Hl d Hd) as [A B].
  split; [exact A | left; exact B].
Qed.

Lemma inline_parse_with_safe F (HF : FN F) src env tokens :
  safe (inline_parse_with cfg rf cf lt F src env tokens) (fun _ => True).
Proof.
  unfold inline_parse_with.
  eapply safe_bind; [apply (inline_tokenize_safe cfg rf cf lt NOLINKIFY F HF); apply PI_init|]. intros st1 _ (HP1 & _).
  eapply safe_bind; [apply run_rules2_safe; [exact ORDER | apply PI_D1; exact HP1]|]. intros st2 _ _. apply safe_ok. exact I.
Qed.

Lemma ifs_FN : forall depth, FN (ifs cfg rf cf lt depth).
Proof.
  induction depth as [|d IH]; cbn [ifs].
  - split; [intros st _; exact I|]. split; [intros st _ _; exact I | intros src env; exact I].
  - cbv zeta. split; [|split].
    + intros st HP. cbn [f_tokenize]. apply (inline_tokenize_safe cfg rf cf lt NOLINKIFY _ IH). exact HP.
    + intros st HP HL. cbn [f_skip]. apply (skip_token_safe cfg rf cf lt NOLINKIFY _ IH); assumption.
    + intros src env. cbn [f_parse]. apply inline_parse_with_safe. exact IH.
Qed.

Theorem inline_parse_no_raise src env tokens : forall e, inline_parse cfg rf cf lt src env tokens <> Raise e.
Proof. unfold inline_parse. eapply safe_nr. apply inline_parse_with_safe. apply ifs_FN. Qed.

End Knot.

From MD Require Import Model.Ruler.

Lemma notpair_order_ok : forall l, forallb (fun m => negb (pair_rule m)) l = true -> order_ok l = true.
Proof.
  induction l as [|n r IH]; intros H; [reflexivity|]. cbn [forallb] in H. apply Bool.andb_true_iff in H. destruct H as [_ H].
  cbn [order_ok]. destruct (str_eqb n n_fragments_join); [exact H | exact (IH H)].
Qed.
Lemma forallb_map_filter {A B} (f : A -> B) (p : B -> bool) (q : A -> bool) l :
  forallb p (map f l) = true -> forallb p (map f (filter q l)) = true.
Proof.
  induction l as [|a l IH]; intros H; [reflexivity|]. cbn [map forallb] in H. apply Bool.andb_true_iff in H. destruct H as [H1 H2].
  cbn [filter]. destruct (q a); [cbn [map forallb]; rewrite H1; exact (IH H2) | exact (IH H2)].
Qed.
(* disabling rules keeps the order: what is left is a sublist *)
Lemma order_ok_map_filter {A} (f : A -> str) (q : A -> bool) : forall l, order_ok (map f l) = true -> order_ok (map f (filter q l)) = true.
Proof.
  induction l as [|a r IH]; intros H; [reflexivity|]. cbn [map order_ok] in H. cbn [filter].
  destruct (str_eqb (f a) n_fragments_join) eqn:E.
  - destruct (q a); [cbn [map order_ok]; rewrite E; apply forallb_map_filter; exact H | apply notpair_order_ok, forallb_map_filter; exact H].
  - destruct (q a); [cbn [map order_ok]; rewrite E; exact (IH H) | exact (IH H)].
Qed.
Lemma order_ok_filter (q : str -> bool) : forall l, order_ok l = true -> order_ok (filter q l) = true.
Proof. intros l H. rewrite <- (map_id (filter q l)). apply order_ok_map_filter. rewrite map_id. exact H. Qed.

Theorem ruler_chain_order_ok (rs : list (@rule str)) : order_ok (map rfn rs) = true -> order_ok (compile_chain rs []) = true.
Proof. apply order_ok_map_filter. Qed.
