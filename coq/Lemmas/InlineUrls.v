(* C05, inline half: every href / src attribute the inline parser puts on a token is empty, or a
   normalizeLink result that validateLink accepted -- whether it comes from an inline destination,
   an autolink, or a reference definition found in env (whose destinations are of that form by
   EnvLemmas).  Through all rules, label / image recursion, skipToken and the post-processing
   rules, for every source and configuration; and (C04) every attribute name is one of href, title, src,
   alt, start, style.  Read off the segment grammar of InlineWalk. *)
From MD Require Import Base.Py Model.Token Model.StateBlock Model.Render Model.Inline Lemmas.BlockLemmas
     Lemmas.EnvLemmas Lemmas.InlineWalk.

(* the attribute names the parser ever writes: href, title (links), src, alt, title (images), start
   (ordered lists), style (table cells).  ("class" is added by the fence renderer to a private copy.) *)
Definition attr_names : list str :=
  [s_href; [116; 105; 116; 108; 101]; s_src; [97; 108; 116]; [115; 116; 97; 114; 116]; [115; 116; 121; 108; 101]].
Definition named_attrs (t : token) : Prop := Forall (fun kv => In (fst kv) attr_names) (tattrs t).

Section IUrls.
Context (cfg : icfg) (rf cf lt : str -> str).

Definition gurl (v : str) : Prop := v = [] \/ good_href rf v.

Definition W (t : token) : Prop :=
  (forall k v, In (k, AStr v) (tattrs t) -> k = s_href \/ k = s_src -> gurl v) /\ named_attrs t.

Lemma W_attrs t t' : tattrs t' = tattrs t -> W t -> W t'.
Proof. unfold W, named_attrs. intros ->. exact (fun H => H). Qed.

Lemma W_nil t : tattrs t = [] -> W t.
Proof. unfold W, named_attrs. intros ->. split; [intros k v [] | constructor]. Qed.

Definition env_good (e : envt) : Prop := Forall (good_ref rf) (env_refs e).

Lemma W_url key url others t :
  tattrs t = (key, AStr url) :: others -> gurl url -> key = s_href \/ key = s_src ->
  Forall (fun kv => fst kv = s_alt \/ fst kv = s_title_) others -> W t.
Proof.
  intros E G K O. rewrite Forall_forall in O. split.
  - intros k v I U. rewrite E in I. destruct I as [I|I].
    + injection I as _ <-. exact G.
    + exfalso. destruct (O _ I) as [X|X], U as [U|U]; cbn in X; rewrite X in U; discriminate U.
  - unfold named_attrs. rewrite E. constructor; [destruct K as [-> | ->]; cbn; tauto|].
    apply Forall_forall. intros kv I. destruct (O _ I) as [-> | ->]; cbn; tauto.
Qed.

Lemma title_attr_names title : Forall (fun kv => fst kv = s_alt \/ fst kv = s_title_) (title_attr title).
Proof. destruct title; [constructor | constructor; [right; reflexivity | constructor]]. Qed.

Theorem inline_parse_urls src env tokens r :
  Forall W tokens -> env_good env -> inline_parse cfg rf cf lt src env tokens = Ok r -> Forall W r.
Proof.
  intros HT HE. apply (inline_parse_Forall cfg rf gurl); try exact HT.
  - left. reflexivity.
  - intros u VL. right. eexists. split; [reflexivity | exact VL].
  - intros t t' _ _ A. apply W_attrs, A.
  - intros ty tag n mk t _. apply W_attrs. reflexivity.
  - intros t [(ty & tag & _ & _ & _ & _ & A) | (_ & h & title & GH & _ & _ & _ & A)]; [apply W_nil, A|].
    apply (W_url s_src h _ t A GH); [right; reflexivity|]. constructor; [left; reflexivity | apply title_attr_names].
  - intros t (_ & h & title & GH & _ & _ & _ & A). apply (W_url s_href h _ t A GH); [left; reflexivity | apply title_attr_names].
  - intros t (_ & _ & _ & _ & A). apply W_nil, A.
  - intros k r' I. right. unfold env_good in HE. rewrite Forall_forall in HE. exact (HE _ I).
Qed.

End IUrls.
