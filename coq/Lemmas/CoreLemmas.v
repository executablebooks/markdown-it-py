(* C19: the typographic rules never change the shape of a token stream: same length,
   same tokens, only the content of tokens of type text may differ; text_join's merge
   pattern depends on types only.  All statements are for EVERY token list. *)
From MD Require Import Base.Py Base.Str Base.Regex Model.Token Model.Render Model.Core.

Definition erase_text (t : token) : token := if str_eqb (ttype t) s_text then set_content t [] else t.

Lemma erase_text_set_content t c :
  str_eqb (ttype t) s_text = true -> erase_text (set_content t c) = erase_text t.
Proof. intros H. unfold erase_text. change (ttype (set_content t c)) with (ttype t). rewrite H. reflexivity. Qed.

Lemma erase_type t : ttype (erase_text t) = ttype t.
Proof. unfold erase_text. destruct (str_eqb (ttype t) s_text); reflexivity. Qed.

Lemma erase_eq_type a b : erase_text a = erase_text b -> ttype a = ttype b.
Proof. intros H. rewrite <- (erase_type a), <- (erase_type b), H. reflexivity. Qed.

Lemma replace_walk_shape g f : forall l k, map erase_text (replace_walk g f l k) = map erase_text l.
Proof.
  induction l as [|t l IH]; intros k; [reflexivity|]. cbn [replace_walk map]. rewrite IH. f_equal.
  destruct (str_eqb (ttype t) s_text) eqn:E; [|reflexivity]. cbn [andb].
  destruct ((k =? 0) && g (tcontent t)); [|reflexivity]. apply erase_text_set_content, E.
Qed.

Lemma replace_walk_length g f l k : length (replace_walk g f l k) = length l.
Proof. revert k; induction l as [|t l IH]; intros k; [reflexivity|]. cbn [replace_walk length]. rewrite IH. reflexivity. Qed.

Definition erase_inline (t : token) : token :=
  match tchildren t with
  | Some ch => set_children t (Some (map erase_text ch))
  | None => t
  end.

Lemma erase_inline_set_children t ch ch' :
  tchildren t = Some ch -> map erase_text ch' = map erase_text ch ->
  erase_inline (set_children t (Some ch')) = erase_inline t.
Proof. intros EC E. unfold erase_inline. rewrite EC. cbn [tchildren set_children]. rewrite E. reflexivity. Qed.

Theorem replacements_shape b ts : map erase_inline (replacements b ts) = map erase_inline ts.
Proof.
  unfold replacements. destruct b; [|reflexivity]. rewrite map_map. apply map_ext. intros t.
  unfold replace_inline. destruct (negb (str_eqb (ttype t) s_inline)); [reflexivity|].
  destruct (tchildren t) as [ch|] eqn:EC; [|reflexivity].
  apply erase_inline_set_children with ch; [exact EC|].
  destruct (test Gen.Regexes.re_replacements_RARE_RE (tcontent t)),
           (test Gen.Regexes.re_replacements_SCOPED_ABBR_RE (tcontent t));
    rewrite ?replace_walk_shape; reflexivity.
Qed.

Definition is_text_at (tokens : list token) (i : nat) : Prop :=
  match nth_error tokens i with Some t => str_eqb (ttype t) s_text = true | None => True end.

Lemma update_nth_map {A B} (f : A -> B) (g : A -> A) : forall (l : list A) i,
  (forall x, nth_error l i = Some x -> f (g x) = f x) -> map f (update_nth i g l) = map f l.
Proof.
  unfold update_nth. induction l as [|x l IH]; intros [|i] H; cbn; try reflexivity.
  - rewrite (H x eq_refl). reflexivity.
  - f_equal. apply IH. intros y Hy. apply H. exact Hy.
Qed.

Lemma set_content_at_shape tokens i c :
  is_text_at tokens i -> map erase_text (set_content_at tokens i c) = map erase_text tokens.
Proof.
  intros H. unfold set_content_at. apply update_nth_map. intros x Hx.
  unfold is_text_at in H. rewrite Hx in H. apply erase_text_set_content, H.
Qed.

Lemma nth_error_update_nth {A} (g : A -> A) : forall (l : list A) i j,
  nth_error (update_nth i g l) j = if Nat.eqb i j then option_map g (nth_error l j) else nth_error l j.
Proof.
  unfold update_nth. induction l as [|x l IH]; intros [|i] [|j]; cbn; try reflexivity.
  - destruct (Nat.eqb i j); reflexivity.
  - apply IH.
Qed.

Lemma update_nth_length {A} (g : A -> A) l i : length (update_nth i g l) = length l.
Proof. unfold update_nth. revert i; induction l as [|x l IH]; intros [|i]; cbn; auto. Qed.

Lemma is_text_at_set tokens i c j : is_text_at tokens j -> is_text_at (set_content_at tokens i c) j.
Proof.
  unfold is_text_at, set_content_at. rewrite nth_error_update_nth.
  destruct (Nat.eqb i j); [|auto]. destruct (nth_error tokens j); cbn; auto.
Qed.

Definition StackOK (tokens : list token) (stack : list sq_item) : Prop :=
  Forall (fun it => is_text_at tokens (sq_token it)) stack.

Lemma stackok_set tokens i c stack : StackOK tokens stack -> StackOK (set_content_at tokens i c) stack.
Proof. unfold StackOK. intros H. eapply Forall_impl; [|exact H]. intros it. apply is_text_at_set. Qed.

Lemma truncate_suffix : forall stack lvl, exists pre, stack = pre ++ truncate_stack stack lvl.
Proof.
  induction stack as [|it rest IH]; intros lvl; cbn [truncate_stack]; [exists []; reflexivity|].
  destruct (sq_level it <=? lvl); [exists []; reflexivity|]. destruct (IH lvl) as [pre E]. exists (it :: pre). cbn. f_equal. exact E.
Qed.

Lemma find_opener_split : forall stack lvl single it rest, find_opener stack lvl single = Some (it, rest) ->
  exists pre, stack = pre ++ it :: rest.
Proof.
  induction stack as [|x stack IH]; intros lvl single it rest H; cbn [find_opener] in H; [discriminate|].
  destruct (sq_level x <? lvl); [discriminate|].
  destruct (Bool.eqb (sq_single x) single && (sq_level x =? lvl)).
  - injection H as <- <-. exists []. reflexivity.
  - apply IH in H. destruct H as [pre E]. exists (x :: pre). cbn. f_equal. exact E.
Qed.

Lemma truncate_ok tokens stack lvl : StackOK tokens stack -> StackOK tokens (truncate_stack stack lvl).
Proof.
  unfold StackOK. intros H. destruct (truncate_suffix stack lvl) as [pre E]. rewrite E in H. apply Forall_app in H. apply H.
Qed.

Lemma find_opener_ok tokens stack lvl single it below :
  StackOK tokens stack -> find_opener stack lvl single = Some (it, below) ->
  is_text_at tokens (sq_token it) /\ StackOK tokens below.
Proof.
  unfold StackOK. intros H F. destruct (find_opener_split _ _ _ _ _ F) as [pre ->].
  apply Forall_app in H. destruct H as [_ H]. inversion H; subst. split; assumption.
Qed.

(* What one round of the while loop does to (tokens, stack, text, pos) once the next quote is found at q: nothing,
   an apostrophe at q, a new opener for q on the stack, or the quote at q closes the opener [it] and both are
   replaced.  Which of the four happens depends on the neighbouring characters; no invariant below cares. *)
Inductive sq_step (quotes : list str) (i : nat) (lvl : Z) (tokens : list token) (stack : list sq_item) (text : str) (q : Z)
  : list token -> list sq_item -> str -> Z -> Prop :=
| sq_skip : sq_step quotes i lvl tokens stack text q tokens stack text (q + 1)
| sq_apostrophe :
    sq_step quotes i lvl tokens stack text q
      (set_content_at tokens i (replace_at (content_at tokens i) q s_apostrophe)) stack text (q + 1)
| sq_push single : sq_step quotes i lvl tokens stack text q tokens (mkSq i q single lvl :: stack) text (q + 1)
| sq_close single it below ko kc :
    find_opener stack lvl single = Some (it, below) ->
    let closeQ := nth kc quotes [] in
    let openQ := nth ko quotes [] in
    let tokens1 := set_content_at tokens i (replace_at (content_at tokens i) q closeQ) in
    let tokens2 := set_content_at tokens1 (sq_token it) (replace_at (content_at tokens1 (sq_token it)) (sq_pos it) openQ) in
    sq_step quotes i lvl tokens stack text q tokens2 below (content_at tokens2 i)
      (q + 1 + (len closeQ - 1) + (if Nat.eqb (sq_token it) i then len openQ - 1 else 0)).

(* Induction over the rounds of the loop: this is the only proof that looks into sq_while. *)
Lemma sq_while_ind quotes i lvl (P : list token -> list sq_item -> str -> Z -> list token -> list sq_item -> Prop) :
  (forall tokens stack text pos, P tokens stack text pos tokens stack) ->
  (forall tokens stack text pos q tokens1 stack1 text1 pos1 tokens' stack',
     find_quote text pos = Some q -> sq_step quotes i lvl tokens stack text q tokens1 stack1 text1 pos1 ->
     P tokens1 stack1 text1 pos1 tokens' stack' -> P tokens stack text pos tokens' stack') ->
  forall fuel tokens stack text pos tokens' stack',
    sq_while fuel quotes i lvl tokens stack text pos = (tokens', stack') -> P tokens stack text pos tokens' stack'.
Proof.
  intros D K. induction fuel as [|fuel IH]; intros tokens stack text pos tokens' stack'; cbn [sq_while].
  { intros H. injection H as <- <-. apply D. }
  destruct (negb (pos <? len text)); [intros H; injection H as <- <-; apply D|].
  destruct (find_quote text pos) as [q|] eqn:FQ; [|intros H; injection H as <- <-; apply D].
  assert (R : forall t1 s1 x1 p1, sq_while fuel quotes i lvl t1 s1 x1 p1 = (tokens', stack') ->
              sq_step quotes i lvl tokens stack text q t1 s1 x1 p1 -> P tokens stack text pos tokens' stack').
  { intros t1 s1 x1 p1 H ST. exact (K _ _ _ _ _ _ _ _ _ _ _ FQ ST (IH _ _ _ _ _ _ H)). }
  clear D K IH.
  (* name the decisions: their values do not matter *)
  set (isSingle := match char_at text q with Some 39 => true | _ => false end).
  match goal with |- context [if negb ?co && negb ?cc then _ else _] => generalize co, cc end.
  intros canOpen canClose.
  destruct (negb canOpen && negb canClose).
  { destruct isSingle; intros H; apply (R _ _ _ _ H); constructor. }
  destruct (if canClose then find_opener stack lvl isSingle else None) as [[it below]|] eqn:FO.
  - destruct canClose; [|discriminate]. intros H. apply (R _ _ _ _ H). apply sq_close with (single := isSingle). exact FO.
  - destruct canOpen; [intros H; apply (R _ _ _ _ H); constructor|].
    destruct (canClose && isSingle); intros H; apply (R _ _ _ _ H); constructor.
Qed.

Lemma sq_step_shape quotes i lvl tokens stack text q tokens1 stack1 text1 pos1 :
  is_text_at tokens i -> StackOK tokens stack -> sq_step quotes i lvl tokens stack text q tokens1 stack1 text1 pos1 ->
  map erase_text tokens1 = map erase_text tokens /\ StackOK tokens1 stack1 /\ is_text_at tokens1 i.
Proof.
  intros Hi Hs ST. destruct ST as [| |single|single it below ko kc FO].
  - auto.
  - rewrite set_content_at_shape by exact Hi. auto using is_text_at_set, stackok_set.
  - split; [reflexivity|]. split; [constructor; [exact Hi | exact Hs] | exact Hi].
  - destruct (find_opener_ok tokens stack lvl single it below Hs FO) as [Hit Hb]. unfold tokens2, tokens1.
    rewrite set_content_at_shape by (apply is_text_at_set, Hit). rewrite set_content_at_shape by exact Hi.
    auto using is_text_at_set, stackok_set.
Qed.

Lemma sq_while_shape quotes i lvl : forall fuel tokens stack text pos tokens' stack',
  sq_while fuel quotes i lvl tokens stack text pos = (tokens', stack') ->
  is_text_at tokens i -> StackOK tokens stack ->
  map erase_text tokens' = map erase_text tokens /\ StackOK tokens' stack' /\ is_text_at tokens' i.
Proof.
  refine (sq_while_ind quotes i lvl _ _ _).
  - auto.
  - intros tokens stack text pos q tokens1 stack1 text1 pos1 tokens' stack' _ ST IH Hi Hs.
    destruct (sq_step_shape _ _ _ _ _ _ _ _ _ _ _ Hi Hs ST) as (A1 & B1 & C1).
    destruct (IH C1 B1) as (A & B & C). rewrite A. auto.
Qed.

(* the counter of open autolinks after token t, as the for loop computes it *)
Definition sq_inside (t : token) (inside : Z) : Z :=
  let inside1 := if str_eqb (ttype t) s_link_open && str_eqb (tinfo t) s_auto then inside + 1 else inside in
  if str_eqb (ttype t) s_link_close && str_eqb (tinfo t) s_auto then inside1 - 1 else inside1.

(* Induction over the rounds of the for loop: it stops when no round is left or at the end of the list, passes over a
   token (one that is not text, or lies inside an autolink), or runs the while loop on a text token outside every
   autolink.  This is the only proof that looks into sq_tokens. *)
Lemma sq_tokens_ind quotes (P : nat -> nat -> list token -> list sq_item -> Z -> list token -> Prop) :
  (forall n i tokens stack inside, (n = O \/ nth_error tokens i = None) -> P n i tokens stack inside tokens) ->
  (forall n i tokens stack inside t out, nth_error tokens i = Some t ->
     P n (S i) tokens (truncate_stack stack (tlevel t)) (sq_inside t inside) out -> P (S n) i tokens stack inside out) ->
  (forall n i tokens stack inside t tokens' stack' out, nth_error tokens i = Some t ->
     str_eqb (ttype t) s_text = true -> sq_inside t inside = 0 ->
     sq_while (S (length (tcontent t))) quotes i (tlevel t) tokens (truncate_stack stack (tlevel t)) (tcontent t) 0 = (tokens', stack') ->
     P n (S i) tokens' stack' (sq_inside t inside) out -> P (S n) i tokens stack inside out) ->
  forall n i tokens stack inside, P n i tokens stack inside (sq_tokens n quotes i tokens stack inside).
Proof.
  intros Stop Pass Scan. induction n as [|n IH]; intros i tokens stack inside; cbn [sq_tokens]; [apply Stop; left; reflexivity|].
  destruct (nth_error tokens i) as [t|] eqn:N; [|apply Stop; right; exact N]. cbv zeta. fold (sq_inside t inside).
  destruct (str_eqb (ttype t) s_text) eqn:ET; cbn [negb orb]; [|exact (Pass _ _ _ _ _ _ _ N (IH _ _ _ _))].
  destruct (sq_inside t inside =? 0) eqn:EI; cbn [negb]; [|exact (Pass _ _ _ _ _ _ _ N (IH _ _ _ _))].
  destruct (sq_while _ _ _ _ _ _ _ _) as [tokens' stack'] eqn:W.
  exact (Scan _ _ _ _ _ _ _ _ _ N ET (proj1 (Z.eqb_eq _ _) EI) W (IH _ _ _ _)).
Qed.

Lemma sq_tokens_shape quotes : forall n i tokens stack inside,
  StackOK tokens stack -> map erase_text (sq_tokens n quotes i tokens stack inside) = map erase_text tokens.
Proof.
  refine (sq_tokens_ind quotes (fun _ i tokens stack _ out => StackOK tokens stack -> map erase_text out = map erase_text tokens) _ _ _).
  - reflexivity.
  - intros n i tokens stack inside t out _ IH Hs. apply IH, truncate_ok, Hs.
  - intros n i tokens stack inside t tokens' stack' out N ET _ W IH Hs.
    assert (Hi : is_text_at tokens i) by (unfold is_text_at; rewrite N; exact ET).
    destruct (sq_while_shape quotes i (tlevel t) _ _ _ _ _ _ _ W Hi (truncate_ok _ _ _ Hs)) as [A [B _]].
    rewrite (IH B). exact A.
Qed.

Theorem process_inlines_shape quotes tokens :
  map erase_text (process_inlines quotes tokens) = map erase_text tokens.
Proof. unfold process_inlines. apply sq_tokens_shape. constructor. Qed.

Theorem smartquotes_shape b quotes ts : map erase_inline (smartquotes b quotes ts) = map erase_inline ts.
Proof.
  unfold smartquotes. destruct b; [|reflexivity]. rewrite map_map. apply map_ext. intros t.
  unfold smartquotes_inline.
  destruct (negb (str_eqb (ttype t) s_inline) || negb (test Gen.Regexes.re_smartquotes_QUOTE_RE (tcontent t))); [reflexivity|].
  destruct (tchildren t) as [ch|] eqn:EC; [|reflexivity].
  exact (erase_inline_set_children t ch _ EC (process_inlines_shape quotes ch)).
Qed.

Lemma erase_keeps l l' i t :
  map erase_text l' = map erase_text l -> nth_error l i = Some t -> str_eqb (ttype t) s_text = false ->
  nth_error l' i = Some t.
Proof.
  intros S N E. apply (f_equal (fun x => nth_error x i)) in S. rewrite !nth_error_map, N in S.
  destruct (nth_error l' i) as [t'|]; [|discriminate]. injection S as M. f_equal.
  (* the erasures agree, so t' has the type of t and neither was erased *)
  pose proof (erase_eq_type _ _ M) as T. unfold erase_text in M. rewrite T, E in M. exact M.
Qed.

(* escapes and entities (text_special) and every other non-text token are byte-identical after both typographic rules *)
Corollary typographer_keeps_non_text quotes ch t i :
  nth_error ch i = Some t -> str_eqb (ttype t) s_text = false ->
  nth_error (process_inlines quotes (replace_walk (fun _ => true) replace_scoped_text ch 0)) i = Some t.
Proof. apply erase_keeps. rewrite process_inlines_shape. apply replace_walk_shape. Qed.

Lemma join_push_shape accx accy x y :
  map erase_text accx = map erase_text accy -> erase_text x = erase_text y ->
  map erase_text (join_push accx x) = map erase_text (join_push accy y).
Proof.
  intros HA HX. pose proof (erase_eq_type _ _ HX) as TX.
  destruct accx as [|px ax], accy as [|py ay]; cbn [map] in HA; try discriminate.
  - cbn. rewrite HX. reflexivity.
  - injection HA as HP HR. pose proof (erase_eq_type _ _ HP) as TP.
    unfold join_push. rewrite TX, TP.
    destruct (str_eqb (ttype y) s_text && str_eqb (ttype py) s_text) eqn:E.
    + cbn [map]. f_equal; [|exact HR].
      apply Bool.andb_true_iff in E. destruct E as [_ E2].
      rewrite !erase_text_set_content by (rewrite ?TP; exact E2). exact HP.
    + cbn [map]. rewrite HX, HP, HR. reflexivity.
Qed.

Lemma join_tok_text t : ttype t = s_text -> join_tok t = t.
Proof.
  intros Ht. destruct t as [ty tag nst ats mp lv ch co mk inf me bl hd]. cbn in Ht. subst ty.
  cbn [join_tok ttype tchildren ttag tnesting tattrs tmap tlevel tcontent tmarkup tinfo tmeta tblock thidden].
  change (str_eqb s_text s_text_special) with false. cbn iota.
  change (str_eqb s_text s_image) with false. destruct ch as [[|c l]|]; reflexivity.
Qed.

Lemma join_tok_erase x y :
  erase_text x = erase_text y -> erase_text (join_tok x) = erase_text (join_tok y).
Proof.
  intros H. pose proof (erase_eq_type _ _ H) as T.
  destruct (str_eqb (ttype x) s_text) eqn:Ex.
  - (* both text: join_tok only re-types text_special, and text is not text_special or image *)
    apply str_eqb_eq in Ex. rewrite !join_tok_text by congruence. exact H.
  - unfold erase_text in H. rewrite <- T, Ex in H. subst y. reflexivity.
Qed.

Lemma join_fold_shape : forall lx ly accx accy,
  map erase_text lx = map erase_text ly -> map erase_text accx = map erase_text accy ->
  map erase_text (fold_left (fun acc y => join_push acc (join_tok y)) lx accx)
  = map erase_text (fold_left (fun acc y => join_push acc (join_tok y)) ly accy).
Proof.
  induction lx as [|x lx IH]; intros [|y ly] accx accy HL HA; cbn [map] in HL; try discriminate.
  - exact HA.
  - injection HL as HX HR. cbn [fold_left]. apply IH; [exact HR|].
    apply join_push_shape; [exact HA | apply join_tok_erase, HX].
Qed.

Theorem join_children_shape lx ly :
  map erase_text lx = map erase_text ly ->
  map erase_text (join_children lx) = map erase_text (join_children ly).
Proof.
  intros H. unfold join_children. rewrite !map_rev. f_equal. apply join_fold_shape; [exact H | reflexivity].
Qed.
