(* C03 / C08: the content of an inline container comes, line by line, from the lines of its map.
   The paragraph rule pushes paragraph_open, inline, paragraph_close; the opener and the inline token
   carry the map [sl, nl), and the inline content is strip(getLines(sl, nl, blkIndent)); by
   get_lines_verbatim (Lemmas/Verbatim.v) that text is one piece per source line sl + i: a suffix of the line
   (after at most 3 spaces from a split tab), only container-prefix characters dropped. *)
From MD Require Import Base.Py Base.Str Model.Token Model.Utils Model.StateBlock Model.Block Lemmas.BlockEff
     Lemmas.Verbatim Lemmas.MapWhole.

Lemma get_lines_parent p st a b indent keep : get_lines (st_parent st p) a b indent keep = get_lines st a b indent keep.
Proof. apply get_lines_ext; reflexivity. Qed.

Theorem paragraph_inline_lines term (T : term_fr term) st sl el st' :
  r_paragraph term st sl el false = Ok (true, st') ->
  exists nl raw op inl cl,
    b_tokens st' = b_tokens st ++ [op; inl; cl]
    /\ tmap op = Some (sl, nl) /\ tmap inl = Some (sl, nl) /\ b_line st' = nl
    /\ get_lines st sl nl (b_blkIndent st) false = Ok raw
    /\ tcontent inl = strip_by is_space raw
    /\ (0 <= b_blkIndent st -> pieces st nl false sl raw).
Proof.
  unfold r_paragraph. intros H.
  apply bind_ok in H as ([[nl u] st1] & PS & H).
  apply (para_scan_fr term T nm_paragraph ltac:(discriminate)) in PS.
  apply bind_ok in H as (raw & GL & H).
  injection H as <-.
  assert (GL' : get_lines st sl nl (b_blkIndent st) false = Ok raw).
  { rewrite PS in GL. rewrite !get_lines_parent in GL. exact GL. }
  exists nl, raw. eexists. eexists. eexists.
  split; [unfold push_inline; change (b_tokens (st_parent ?x ?y)) with (b_tokens x); rewrite !bpush_tokens, <- !app_assoc; cbn [app];
          change (b_tokens (st_line st1 nl)) with (b_tokens st1); rewrite (fr_tokens _ _ PS); reflexivity|].
  split; [reflexivity|]. split; [reflexivity|]. split; [reflexivity|]. split; [exact GL'|]. split; [reflexivity|].
  intros HI. exact (get_lines_verbatim st sl nl _ false raw GL' HI).
Qed.
