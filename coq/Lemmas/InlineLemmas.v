(* The definitions of the inline model by the cases their callers meet - a push by its nesting, the
   wrap-around read, an update of the n-th element, the sweep over the delimiter lists, fragments_join -
   and the theorems of C09, C10 and C20 that are read off a single rule. *)
From RecordUpdate Require Import RecordUpdate.
From MD Require Import Base.Py Base.Str Model.Token Model.Utils Model.Render Model.Inline.
From MD Require Import Gen.Tables.
From Coq Require Import ZifyBool.

(* push flushes the pending text first, then appends its token; [m] is the id of the delimiter list an opening token starts *)
Definition flushed (st : istate) : istate := match i_pending st with [] => st | _ => push_pending st end.
Definition pushed (s : istate) (t : token) (m : option nat) : istate :=
  s <| i_pendingLevel := i_level s |> <| i_tokens := i_tokens s ++ [t] |> <| i_meta := i_meta s ++ [m] |>.

(* in the three proofs [pushed] is unfolded before the two sides are compared: with it folded the conversion check is slow *)
Lemma ipush_leaf_eq st ty tag f :
  ipush st ty tag 0 f = Ok (pushed (flushed st) (f (set_level (new_token ty tag 0) (i_level st))) None).
Proof. unfold ipush, flushed, pushed. destruct (i_pending st); reflexivity. Qed.

Lemma ipush_open_eq st ty tag f :
  ipush st ty tag 1 f
  = Ok (let s := flushed st in
        pushed (s <| i_level := i_level s + 1 |> <| i_prev := i_cur s :: i_prev s |> <| i_dstore := i_dstore s ++ [[]] |>
                  <| i_cur := length (i_dstore s) |>)
               (f (set_level (new_token ty tag 1) (i_level st))) (Some (length (i_dstore s)))).
Proof. unfold ipush, flushed, pushed. destruct (i_pending st); reflexivity. Qed.

Lemma ipush_close_eq st ty tag f p rest : i_prev st = p :: rest ->
  ipush st ty tag (-1) f
  = Ok (let s := flushed st in
        pushed (s <| i_level := i_level s - 1 |> <| i_cur := p |> <| i_prev := rest |>)
               (f (set_level (new_token ty tag (-1)) (i_level s - 1))) None).
Proof.
  intros E. assert (E' : i_prev (flushed st) = p :: rest) by (unfold flushed; destruct (i_pending st); exact E).
  unfold ipush, pushed. fold (flushed st). cbv zeta. rewrite E'. reflexivity.
Qed.

(* l[i] with Python's wrap-around, as dget and tget spell it *)
Lemma read_In {A} (l : list A) i v :
  (let j := if i <? 0 then i + len l else i in
   match (if j <? 0 then None else nth_error l (Z.to_nat j)) with Some x => Ok x | None => Raise IndexError end) = Ok v -> In v l.
Proof.
  cbv zeta. destruct (_ <? 0); [discriminate|].
  destruct (nth_error l _) as [x|] eqn:N; [|discriminate]. intros E. injection E as <-. exact (nth_error_In _ _ N).
Qed.
Lemma dget_In ds i d : dget ds i = Ok d -> In d ds.
Proof. exact (read_In ds i d). Qed.
Lemma tget_In l i t : tget l i = Ok t -> In t l.
Proof. exact (read_In l i t). Qed.

Lemma In_upd_nth_l {A} (f : A -> A) : forall n (l : list A) x, In x (upd_nth_l n f l) -> In x l \/ exists y, In y l /\ x = f y.
Proof.
  unfold upd_nth_l. induction n as [|n IH]; intros [|a l] x H; cbn in H; try contradiction.
  - destruct H as [<-|H]; [right; exists a; split; [left; reflexivity | reflexivity] | left; right; exact H].
  - destruct H as [<-|H]; [left; left; reflexivity|]. destruct (IH l x H) as [I|(y & I & E)]; [left; right; exact I | right; exists y; split; [right; exact I | exact E]].
Qed.
Lemma In_upd_nth_l_P {A} (P : A -> Prop) (f : A -> A) (Hf : forall x, P x -> P (f x)) n (l : list A) :
  Forall P l -> Forall P (upd_nth_l n f l).
Proof.
  intros H. apply Forall_forall. intros x Hx. rewrite Forall_forall in H.
  apply In_upd_nth_l in Hx. destruct Hx as [I|(y & I & ->)]; [exact (H x I) | exact (Hf y (H y I))].
Qed.

Lemma fj_Forall (P : token -> Prop) (Pl : forall t l, P t -> P (set_level t l)) (Pc : forall t c, P t -> P (set_content t c)) :
  forall tokens level carry, Forall P tokens -> Forall P (fj tokens level carry).
Proof.
  induction tokens as [|t rest IH]; intros level carry H; [constructor|].
  inversion H as [|? ? Ht Hr]; subst. cbn [fj].
  assert (V1 : P (set_level (match carry with Some c => set_content t (c ++ tcontent t) | None => t end)
                            (if tnesting t <? 0 then level - 1 else level))).
  { apply Pl. destruct carry; [apply Pc|]; exact Ht. }
  destruct rest as [|n rest'].
  - constructor; [exact V1 | constructor].
  - destruct (str_eqb (ttype t) s_text && str_eqb (ttype n) s_text); [apply IH; exact Hr|].
    constructor; [exact V1 | apply IH; exact Hr].
Qed.

Lemma on_all_delims_inv (INV : istate -> Prop) (f : istate -> nat -> res istate)
      (Hf : forall s id s', INV s -> f s id = Ok s' -> INV s') st st' :
  INV st -> on_all_delims f st = Ok st' -> INV st'.
Proof.
  assert (EM : forall metas st st', INV st -> each_meta f metas st = Ok st' -> INV st').
  { induction metas as [|[id|] rest IH]; intros s s' HI H; cbn [each_meta] in H; [injection H as <-; exact HI| |eapply IH; eassumption].
    apply bind_ok in H as (s1 & E & H).
    eapply IH; [eapply Hf; eassumption | exact H]. }
  unfold on_all_delims. intros HI H.
  apply bind_ok in H as (s1 & E & H).
  eapply EM; [eapply Hf; eassumption | exact H].
Qed.

(* C10: at a character other than "~" the strikethrough rule answers False and leaves the state as it is *)
Theorem strike_tokenize_inert st silent r :
  (forall c, py_idx (i_src st) (i_pos st) = Ok c -> c <> 126) ->
  r_strikethrough st silent = Ok r -> r = (false, st).
Proof.
  intros NT H. unfold r_strikethrough in H.
  destruct (py_idx (i_src st) (i_pos st)) as [ch|e|] eqn:P; cbn [bind] in H; try discriminate.
  destruct silent; [injection H as <-; reflexivity|].
  destruct (ch =? 126) eqn:E; cbn [negb] in H.
  - exfalso. apply (NT ch eq_refl). lia.
  - injection H as <-. reflexivity.
Qed.

(* post-processing: a delimiter list without "~" delimiters leaves the tokens untouched *)
Lemma st_pass1_inert : forall fuel ds tokens i lone,
  Forall (fun d => d_marker d <> 126) ds ->
  st_pass1 fuel ds tokens i lone = Ok (tokens, lone) \/ exists e, st_pass1 fuel ds tokens i lone = Raise e.
Proof.
  induction fuel as [|f IH]; intros ds tokens i lone HF; [left; reflexivity|]. cbn [st_pass1].
  destruct (i <? len ds); cbn [negb]; [|left; reflexivity].
  destruct (dget ds i) as [d|e|] eqn:G; cbn [bind].
  - assert (Hd : d_marker d <> 126) by (rewrite Forall_forall in HF; apply HF; eapply dget_In, G).
    assert (E : (d_marker d =? 126) = false) by lia. rewrite E. cbn [negb orb]. apply IH, HF.
  - right; eexists; reflexivity.
  - exfalso. unfold dget in G. cbv zeta in G.
    destruct (if (if i <? 0 then i + len ds else i) <? 0 then None else nth_error ds (Z.to_nat (if i <? 0 then i + len ds else i))); discriminate.
Qed.

Theorem strike_post_inert ds tokens r :
  Forall (fun d => d_marker d <> 126) ds -> strike_post ds tokens = Ok r -> r = tokens.
Proof.
  intros HF H. unfold strike_post in H.
  destruct (st_pass1_inert (S (length ds)) ds tokens 0 [] HF) as [E|[e E]]; rewrite E in H; cbn [bind] in H; [|discriminate].
  cbn in H. injection H as <-. reflexivity.
Qed.

Lemma punct_escapable : forallb (fun c => mem_z c escaped_table) md_ascii_punct = true.
Proof. vm_compute. reflexivity. Qed.

(* C09: at a backslash followed by an ASCII punctuation character the escape rule pushes one text_special
   token whose content is that character alone *)
Theorem escape_punct st c :
  py_idx (i_src st) (i_pos st) = Ok 92 -> i_pos st + 1 < i_posMax st ->
  py_idx (i_src st) (i_pos st + 1) = Ok c -> is_md_ascii_punct c = true -> i_pending st = [] ->
  exists st', r_escape st false = Ok (true, st') /\ i_pos st' = i_pos st + 2
    /\ exists t, i_tokens st' = i_tokens st ++ [t] /\ ttype t = s_text_special_ /\ tcontent t = [c]
                 /\ tmarkup t = [92; c] /\ tnesting t = 0.
Proof.
  intros P0 Hm P1 Hp Pe. unfold r_escape. rewrite P0. cbn [bind]. change (92 =? 92) with true. cbn [negb].
  assert (E1 : (i_posMax st <=? i_pos st + 1) = false) by lia. rewrite E1. rewrite P1. cbn [bind].
  assert (E2 : (c =? 10) = false).
  { unfold is_md_ascii_punct, mem_z, md_ascii_punct in Hp. destruct (c =? 10) eqn:E; [|reflexivity].
    apply Z.eqb_eq in E. subst c. vm_compute in Hp. discriminate. }
  rewrite E2.
  assert (E3 : mem_z c escaped_table = true).
  { pose proof punct_escapable as F. rewrite forallb_forall in F. apply F.
    unfold is_md_ascii_punct, mem_z in Hp. apply existsb_exists in Hp. destruct Hp as [x [Hx Ex]].
    apply Z.eqb_eq in Ex. subst x. exact Hx. }
  rewrite E3, ipush_leaf_eq. unfold flushed. rewrite Pe. cbn [bind].
  eexists. split; [reflexivity|]. cbn. split; [lia|].
  eexists. repeat split; reflexivity.
Qed.

Lemma zlookup_zset k v m : zlookup k (zset k v m) = Some v.
Proof. induction m as [|[k' v'] m IH]; cbn; [rewrite Z.eqb_refl; reflexivity|]. destruct (k =? k') eqn:E; cbn; rewrite ?E, ?Z.eqb_refl; auto. Qed.

Lemma zlookup_zset_other k k' v m : k <> k' -> zlookup k (zset k' v m) = zlookup k m.
Proof.
  intros N. induction m as [|[a b] m IH]; cbn.
  - assert (E : (k =? k') = false) by lia. rewrite E. reflexivity.
  - destruct (k' =? a) eqn:E1; cbn.
    + assert (k' = a) by lia. subst a. assert (E : (k =? k') = false) by lia. rewrite E. reflexivity.
    + destruct (k =? a); [reflexivity | exact IH].
Qed.

(* C20, skipToken is memoised: a cache hit costs no rule invocation and returns the cached position *)
Theorem skip_token_hit cfg rf cf lt F st p :
  zlookup (i_pos st) (i_cache st) = Some p -> skip_token cfg rf cf lt F st = Ok (st <| i_pos := p |>).
Proof. intros H. unfold skip_token. rewrite H. reflexivity. Qed.

(* after a miss the start position is in the cache, bound to the position returned: the body of
   skipToken runs at most once per position of a StateInline *)
Theorem skip_token_memo cfg rf cf lt F st st' :
  zlookup (i_pos st) (i_cache st) = None ->
  skip_token cfg rf cf lt F st = Ok st' -> zlookup (i_pos st) (i_cache st') = Some (i_pos st').
Proof.
  intros Hn H. unfold skip_token in H. rewrite Hn in H.
  destruct (i_level st <? ic_maxNesting cfg).
  - destruct (first_rule _ _ _ _ _ _ _ _ _) as [[ok st1]|e|]; cbn [bind] in H; try discriminate.
    injection H as <-. cbn. destruct ok; cbn; apply zlookup_zset.
  - cbn [bind] in H. injection H as <-. cbn. apply zlookup_zset.
Qed.

(* beyond the nesting cap the tail is skipped, not recursed into *)
Theorem skip_token_cap cfg rf cf lt F st :
  zlookup (i_pos st) (i_cache st) = None -> ic_maxNesting cfg <= i_level st ->
  exists st', skip_token cfg rf cf lt F st = Ok st' /\ i_pos st' = i_posMax st + 1.
Proof.
  intros Hn Hl. unfold skip_token. rewrite Hn.
  assert (E : (i_level st <? ic_maxNesting cfg) = false) by lia. rewrite E. cbn [bind].
  eexists. split; [reflexivity|]. cbn. reflexivity.
Qed.
