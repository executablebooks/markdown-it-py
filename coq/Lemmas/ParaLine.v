(* C18 (and the paragraph context of C09): the class of one-line documents.  A line s of the class (line_ok) starts
   with a letter, has no blank at its end and no line-end character.  parse(s LF) is paragraph_open, inline,
   paragraph_close; the inline token's content is s and its children are exactly what parseInline(s) produces -- the
   block parser hands the inline parser the same string in the paragraph context as in inline mode.  This file has
   the class, the tokens, and the core chain  normalize, block, inline, text_join  as equations; the block parser on
   such lines is in Lemmas/QuoteLine.v, the theorems about parse(s LF) are in Lemmas/NestLine.v (no containers: cs = []). *)
From MD Require Import Base.Py Base.Str Model.Token Model.Utils Model.StateBlock Model.Render Model.Core Model.Block
     Model.Inline Model.Pipeline Lemmas.NormalizeLemmas.
From Coq Require Import ZifyBool.

Definition letter (c : Z) : Prop := (97 <= c <= 122) \/ (65 <= c <= 90).

Record line_ok (s : str) : Prop := {
  lo_head : exists c0 body, s = c0 :: body /\ letter c0 /\ (forall x, In x body -> x <> 10);
  lo_strip : strip_by is_space s = s
}.

(* the state of the block parser on the document  s LF : two table rows (the line, the sentinel) *)
Definition one_line (st : bstate) (s : str) : Prop :=
  b_src st = s ++ [10]
  /\ b_bMarks st = [0; len s + 1] /\ b_eMarks st = [len s; len s + 1]
  /\ b_tShift st = [0; 0] /\ b_sCount st = [0; 0] /\ b_bsCount st = [0; 0]
  /\ b_blkIndent st = 0 /\ b_lineMax st = 1 /\ b_listIndent st = -1 /\ b_level st = 0.

Lemma letter_not_space c : letter c -> is_space c = false /\ c <> 10.
Proof. unfold letter, is_space. lia. Qed.

Section Tokens.
Context (s : str).

Definition para_tokens (lvl : Z) : list token :=
  [map_tok 0 1 (set_level (set_block (new_token [112; 97; 114; 97; 103; 114; 97; 112; 104; 95; 111; 112; 101; 110] [112] 1) true) lvl);
   set_children (map_tok 0 1 (set_content (set_level (set_block (new_token s_inline [] 0) true) (lvl + 1)) s)) (Some []);
   set_level (set_block (new_token [112; 97; 114; 97; 103; 114; 97; 112; 104; 95; 99; 108; 111; 115; 101] [112] (-1)) true) lvl].

Definition p_open : token := map_tok 0 1 (set_level (set_block (new_token [112; 97; 114; 97; 103; 114; 97; 112; 104; 95; 111; 112; 101; 110] [112] 1) true) 0).
Definition p_inl : token := set_children (map_tok 0 1 (set_content (set_level (set_block (new_token s_inline [] 0) true) 1) s)) (Some []).
Definition p_close : token := set_level (set_block (new_token [112; 97; 114; 97; 103; 114; 97; 112; 104; 95; 99; 108; 111; 115; 101] [112] (-1)) true) 0.
Definition i_inl : token := set_children (set_map (set_content (new_token s_inline [] 0) s) (Some (0, 1))) (Some []).

End Tokens.

Lemma text_join_plain t rest : str_eqb (ttype t) s_inline = false -> text_join (t :: rest) = t :: text_join rest.
Proof. intros H. unfold text_join. cbn [map]. rewrite H. reflexivity. Qed.
Lemma text_join_inline t0 ch rest : str_eqb (ttype t0) s_inline = true ->
  text_join (set_children t0 (Some ch) :: rest) = set_children t0 (Some (join_children ch)) :: text_join rest.
Proof. intros H. unfold text_join. cbn [map ttype tchildren set_children]. rewrite H. reflexivity. Qed.

Section Pipe.
Context (cfg : pcfg) (rf cf lt : str -> str).

Lemma core_rule_normalize st :
  core_rule cfg rf cf lt n_normalize st = Ok (mkC (normalize (c_src st)) (c_env st) (c_tokens st) (c_inlineMode st)).
Proof. reflexivity. Qed.
Lemma core_rule_block src env toks :
  core_rule cfg rf cf lt n_block (mkC src env toks false)
  = (do b <- block_parse (p_block cfg) rf cf src env toks; Ok (mkC src (b_env b) (b_tokens b) false)).
Proof. reflexivity. Qed.
Lemma core_rule_block_inline src env toks :
  core_rule cfg rf cf lt n_block (mkC src env toks true) = Ok (mkC src env (toks ++ [i_inl src]) true).
Proof. reflexivity. Qed.
Lemma core_rule_inline st :
  core_rule cfg rf cf lt n_inline st
  = (do ts <- inline_all cfg rf cf lt (c_tokens st) (c_env st); Ok (mkC (c_src st) (c_env st) ts (c_inlineMode st))).
Proof. reflexivity. Qed.
Lemma core_rule_text_join st :
  core_rule cfg rf cf lt n_text_join st = Ok (mkC (c_src st) (c_env st) (text_join (c_tokens st)) (c_inlineMode st)).
Proof. reflexivity. Qed.

Lemma inline_all_plain t rest env : str_eqb (ttype t) s_inline = false ->
  inline_all cfg rf cf lt (t :: rest) env = (do rest' <- inline_all cfg rf cf lt rest env; Ok (t :: rest')).
Proof. intros H. cbn [inline_all]. rewrite H. reflexivity. Qed.

Lemma inline_all_inline t0 s rest env : str_eqb (ttype t0) s_inline = true -> tcontent t0 = s ->
  inline_all cfg rf cf lt (set_children t0 (Some []) :: rest) env
  = (do ch <- inline_parse (p_inline cfg) rf cf lt s env []; do rest' <- inline_all cfg rf cf lt rest env;
     Ok (set_children t0 (Some ch) :: rest')).
Proof. intros H <-. cbn [inline_all ttype tcontent tchildren set_children]. rewrite H. destruct (inline_parse _ _ _ _ _ _ _); reflexivity. Qed.

Lemma inline_all_app : forall a b env,
  inline_all cfg rf cf lt (a ++ b) env = (do a' <- inline_all cfg rf cf lt a env; do b' <- inline_all cfg rf cf lt b env; Ok (a' ++ b')).
Proof.
  induction a as [|t a IH]; intros b env; cbn [app inline_all].
  - cbn [bind]. destruct (inline_all cfg rf cf lt b env); reflexivity.
  - match goal with |- bind ?m _ = _ => destruct m as [t'|e|] end; cbn [bind]; try reflexivity.
    rewrite IH. destruct (inline_all cfg rf cf lt a env) as [a'|e|]; cbn [bind]; try reflexivity.
    destruct (inline_all cfg rf cf lt b env) as [b'|e|]; cbn [bind]; reflexivity.
Qed.

Lemma parse_std src env : mem_z CR src = false -> mem_z NUL src = false ->
  p_core cfg = [n_normalize; n_block; n_inline; n_text_join] ->
  parse cfg rf cf lt src env
  = (do b <- block_parse (p_block cfg) rf cf src env [];
     do ts <- inline_all cfg rf cf lt (b_tokens b) (b_env b);
     Ok (text_join ts, b_env b)).
Proof.
  intros H13 H0 Hcore. unfold parse. rewrite Hcore. cbn [core_process].
  rewrite core_rule_normalize. cbn [bind c_src c_env c_tokens c_inlineMode]. rewrite (normalize_id src H13 H0), core_rule_block.
  destruct (block_parse (p_block cfg) rf cf src env []) as [b|e|]; cbn [bind]; try reflexivity.
  rewrite core_rule_inline. cbn [c_src c_env c_tokens c_inlineMode].
  destruct (inline_all cfg rf cf lt (b_tokens b) (b_env b)) as [ts|e|]; cbn [bind]; [|reflexivity|reflexivity].
  rewrite core_rule_text_join. reflexivity.
Qed.

Theorem parse_inline_one_line s : mem_z CR s = false -> mem_z NUL s = false ->
  p_core cfg = [n_normalize; n_block; n_inline; n_text_join] ->
  forall env, parse_inline cfg rf cf lt s env
  = (do toks <- inline_parse (p_inline cfg) rf cf lt s env [];
     Ok ([set_children (i_inl s) (Some (join_children toks))], env)).
Proof.
  intros H13 H0 Hcore env. unfold parse_inline. rewrite Hcore. cbn [core_process].
  rewrite core_rule_normalize. cbn [bind c_src c_env c_tokens c_inlineMode]. rewrite (normalize_id s H13 H0), core_rule_block_inline.
  cbn [bind app]. rewrite core_rule_inline. cbn [c_src c_env c_tokens c_inlineMode]. unfold i_inl at 1.
  rewrite (inline_all_inline _ s) by reflexivity.
  destruct (inline_parse (p_inline cfg) rf cf lt s env []) as [toks|e|]; cbn [bind]; reflexivity.
Qed.

End Pipe.
