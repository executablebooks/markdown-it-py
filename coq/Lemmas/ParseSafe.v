(* C01, whole pipeline: MarkdownIt.parse and parseInline never raise.  Block parser (NoRaise),
   inline parser with its post-processing (InlineSafe) and the core chain composed. *)
From MD Require Import Base.Py Model.Token Model.Render Model.Block Model.Inline Model.Pipeline Lemmas.NoRaise
     Lemmas.InlineSafe.

Lemma nr_safe {A} (m : res A) : (forall e, m <> Raise e) -> safe m (fun _ => True).
Proof. intros H. destruct m as [a|e|]; [exact I | exact (H e eq_refl) | exact I]. Qed.

Section Whole.
Context (cfg : pcfg) (rf cf lt : str -> str).
(* the supported configurations: the block chain has the paragraph rule and Ruler-shaped
   terminator chains; the linkifier (not installed) is off; the post-processing chain is in
   registration order *)
Context (TNO : term_names_ok (p_block cfg)) (PA : mem_str nm_paragraph (c_rules (p_block cfg)) = true).
Context (NL1 : ic_linkify (p_inline cfg) = false) (NL2 : p_linkify cfg = false).
Context (ORD : order_ok (ic_rules2 (p_inline cfg)) = true).

Lemma inline_all_safe : forall tokens env, safe (inline_all cfg rf cf lt tokens env) (fun _ => True).
Proof.
  induction tokens as [|t rest IH]; intros env; cbn [inline_all]; [exact I|].
  eapply safe_bind with (Q := fun _ => True).
  { destruct (str_eqb (ttype t) s_inline); [|exact I].
    eapply safe_bind; [apply nr_safe; apply inline_parse_no_raise; assumption|]. intros ch _ _. exact I. }
  intros t' _ _. eapply safe_bind; [apply IH|]. intros rest' _ _. exact I.
Qed.

Lemma core_rule_safe name st : safe (core_rule cfg rf cf lt name st) (fun _ => True).
Proof.
  unfold core_rule.
  destruct (str_eqb name n_normalize); [exact I|].
  destruct (str_eqb name n_block).
  { destruct (c_inlineMode st); [exact I|].
    eapply safe_bind; [apply nr_safe; apply block_parse_no_raise; assumption|]. intros b _ _. exact I. }
  destruct (str_eqb name n_inline).
  { eapply safe_bind; [apply inline_all_safe|]. intros ts _ _. exact I. }
  destruct (str_eqb name n_linkify); [rewrite NL2; exact I|].
  destruct (str_eqb name n_replacements); [exact I|].
  destruct (str_eqb name n_smartquotes); [exact I|].
  destruct (str_eqb name n_text_join); exact I.
Qed.

Lemma core_process_safe : forall names st, safe (core_process cfg rf cf lt names st) (fun _ => True).
Proof.
  induction names as [|n rest IH]; intros st; cbn [core_process]; [exact I|].
  eapply safe_bind; [apply core_rule_safe|]. intros st' _ _. apply IH.
Qed.

Theorem parse_no_raise src env : forall e, parse cfg rf cf lt src env <> Raise e.
Proof. unfold parse. apply (safe_nr _ (fun _ => True)). eapply safe_bind; [apply core_process_safe|]. intros st _ _. exact I. Qed.

Theorem parse_inline_no_raise src env : forall e, parse_inline cfg rf cf lt src env <> Raise e.
Proof. unfold parse_inline. apply (safe_nr _ (fun _ => True)). eapply safe_bind; [apply core_process_safe|]. intros st _ _. exact I. Qed.

End Whole.
