(* C13: with the compiled dict published by a single store, every getRules of
   every thread under every schedule returns the complete, correct chain; the
   publish-then-fill code is refuted by a two-thread schedule. *)
From MD Require Import Base.Py Model.Ruler Model.Conc Lemmas.RulerCoherent.

Section FixedRules.
Context {F : Type}.
Context (rs : list (rule F)).

Definition CacheOK (c : option (list (str * list F))) : Prop :=
  c = None \/ c = Some (compile rs).

Definition ResultsOK (t : thread) : Prop :=
  Forall (fun cl => snd cl = compile_chain rs (fst cl)) (results t).

Definition StateOK (c : option (list (str * list F))) (t : thread) : Prop :=
  match ts t with
  | TCompiled _ l => l = compile rs
  | TFill _ _ => False
  | TAssert _ | TLookup _ => c = Some (compile rs)
  | TFail => False
  | TIdle | TRead _ => True
  end.

Definition ThreadOK c t : Prop := StateOK c t /\ ResultsOK t.

Definition Inv (w : cworld) : Prop :=
  CacheOK (ccache w) /\ Forall (ThreadOK (ccache w)) (threads w).

Lemma tstep_ok c t :
  CacheOK c -> ThreadOK c t ->
  let '(c', t') := tstep rs false c t in
  CacheOK c' /\ ThreadOK c' t' /\ (c = Some (compile rs) -> c' = Some (compile rs)).
Proof.
  intros HC [HS HR]. unfold tstep, ThreadOK, StateOK, ResultsOK in *.
  destruct t as [st pend res]; simpl in *.
  destruct st as [|ch|ch l|ch todo|ch|ch|]; simpl in *; try contradiction.
  - destruct pend; simpl; repeat split; auto.
  - destruct c as [d|]; simpl.
    + destruct HC as [HC|HC]; [discriminate|]. repeat split; auto. right; exact HC.
    + repeat split; auto.
  - subst l. repeat split; auto. right; reflexivity.
  - rewrite HS. simpl. repeat split; auto. right; reflexivity.
  - rewrite HS. simpl. repeat split; auto; [right; reflexivity|].
    apply Forall_app; split; [exact HR|]. constructor; [|constructor]. simpl. apply compile_correct.
Qed.

Lemma threadok_mono c c' t :
  (c = Some (compile rs) -> c' = Some (compile rs)) -> ThreadOK c t -> ThreadOK c' t.
Proof.
  intros M [HS HR]. split; [|exact HR]. unfold StateOK in *.
  destruct (ts t); auto.
Qed.

Lemma forall_upd n (t : @thread F) l P : Forall P l -> P t -> Forall P (upd_thread n t l).
Proof.
  intros H Ht; revert n; induction H as [|x l Hx Hl IH]; intros [|n]; simpl; constructor; auto.
Qed.

Lemma cstep_inv w tid : Inv w -> Inv (cstep rs false w tid).
Proof.
  intros [HC HT]. unfold cstep. destruct (nth_error (threads w) tid) as [t|] eqn:N; [|split; assumption].
  assert (Ht : ThreadOK (ccache w) t).
  { rewrite Forall_forall in HT. apply HT. eapply nth_error_In, N. }
  pose proof (tstep_ok (ccache w) t HC Ht) as S.
  destruct (tstep rs false (ccache w) t) as [c' t']. destruct S as [C' [T' M]].
  split; simpl; [exact C'|]. apply forall_upd; [|exact T'].
  eapply Forall_impl; [|exact HT]. intros u Hu. eapply threadok_mono; eassumption.
Qed.

Theorem crun_inv schedule : forall w, Inv w -> Inv (crun rs false schedule w).
Proof. apply fold_left_inv, cstep_inv. Qed.

Lemma start_inv c programs : CacheOK c -> Inv (start c programs).
Proof.
  intros HC. split; [exact HC|]. simpl. apply Forall_forall. intros t Ht.
  apply in_map_iff in Ht. destruct Ht as [p [<- _]]. split; [exact I | constructor].
Qed.

(* The statement of C13 on the model: any number of threads, any programs (lists of
   chain requests), any schedule, starting from a fresh (uncompiled) or already
   compiled instance: no thread fails, and every completed getRules(chain)
   returned exactly what a solo call returns: the enabled rules of that chain in
   registration order. *)
Theorem getRules_linearizable c programs schedule :
  CacheOK c ->
  let w := crun rs false schedule (start c programs) in
  forall t, In t (threads w) ->
    ts t <> TFail /\ forall ch l, In (ch, l) (results t) -> l = compile_chain rs ch.
Proof.
  intros HC w t Ht. destruct (crun_inv schedule _ (start_inv c programs HC)) as [_ HT].
  fold w in HT. rewrite Forall_forall in HT. destruct (HT t Ht) as [HS HR]. split.
  - unfold StateOK in HS. destruct (ts t); try discriminate; contradiction.
  - intros ch l Hin. unfold ResultsOK in HR. rewrite Forall_forall in HR. apply (HR (ch, l) Hin).
Qed.

(* a thread that is scheduled often enough finishes all its requests: each request
   takes at most 5 of its own steps, whatever the others do (no waiting, no lock) *)
Definition steps_left (t : @thread F) : nat :=
  (match ts t with
   | TIdle => 0 | TRead _ => 4 | TCompiled _ _ => 3 | TAssert _ => 2 | TLookup _ => 1
   | TFill _ todo => 3 + length todo | TFail => 0
   end + 5 * length (pending t))%nat.

Lemma tstep_progress c t :
  StateOK c t -> (0 < steps_left t)%nat ->
  (steps_left (snd (tstep rs false c t)) < steps_left t)%nat.
Proof.
  intros HS Hpos. unfold tstep, steps_left, StateOK in *.
  destruct t as [st pend res]; simpl in *.
  destruct st as [|ch|ch l|ch todo|ch|ch|]; simpl in *; try contradiction; try lia.
  - destruct pend; simpl in *; lia.
  - destruct c; simpl; lia.
  - rewrite HS; simpl; lia.
  - rewrite HS; simpl; lia.
Qed.

End FixedRules.

(* the code before the repair (legacy = true) published an empty dict and filled it in place: two threads suffice for
   one of them to read an empty chain *)

Definition race_rules : list (rule Z) := [mkRule [97] true 1 []].

Definition race_schedule : list nat := [0; 0; 1; 1; 1]%nat.

Lemma race_refuted :
  let w := crun race_rules true race_schedule (start None [[[]]; [[]]]) in
  exists t, nth_error (threads w) 1 = Some t /\ results t = [([], [])]
            /\ compile_chain race_rules [] = [1].
Proof. vm_compute. eexists; repeat split. Qed.

(* the same schedule, run on to the end, is harmless with the single store (flag false) *)
Lemma race_schedule_fixed :
  let w := crun race_rules false [0; 0; 1; 1; 1; 1; 1; 0; 0; 0]%nat (start None [[[]]; [[]]]) in
  map results (threads w) = [[([], [1])]; [([], [1])]].
Proof. vm_compute. reflexivity. Qed.
