(* Line-feed counting: the `lines` counters of the reference rule never exceed the number of line
   feeds in the string they scan.  The one idea: for every scan,  lines + NL s pos  (what was counted
   plus the line feeds still ahead) never increases - a scan that moves from pos to p' and counts up to
   lines' has  lines' + NL s p' <= lines + NL s pos ; the bound is that quantity at the start. *)
From MD Require Import Base.Py Base.Str Model.Utils Model.Helpers Model.Block Lemmas.Phases Lemmas.StrLemmas
 Lemmas.QuoteLemmas.
From Coq Require Import ZifyBool.

Fixpoint c10 (s : str) : Z := match s with [] => 0 | c :: r => (if c =? 10 then 1 else 0) + c10 r end.
Definition NL (s : str) (p : Z) : Z := c10 (skipn (Z.to_nat p) s).

Lemma c10_nonneg s : 0 <= c10 s.
Proof. induction s as [|c s IH]; cbn [c10]; [lia|]. destruct (c =? 10); lia. Qed.
Lemma c10_app a b : c10 (a ++ b) = c10 a + c10 b.
Proof. induction a as [|c a IH]; cbn [c10 app]; [lia|]. rewrite IH. lia. Qed.

Lemma c10_skipn_le : forall k s, c10 (skipn k s) <= c10 s.
Proof.
  induction k as [|k IH]; intros s; [cbn; lia|]. destruct s as [|c s]; [cbn; lia|].
  cbn [skipn c10]. specialize (IH s). destruct (c =? 10); lia.
Qed.

Lemma NL_nonneg s p : 0 <= NL s p.
Proof. apply c10_nonneg. Qed.
Lemma NL_total s p : NL s p <= c10 s.
Proof. apply c10_skipn_le. Qed.

Lemma NL_step s p : 0 <= p ->
  NL s (p + 1) <= NL s p /\ (char_at s p = Some 10 -> NL s p = 1 + NL s (p + 1)).
Proof.
  intros Hp. unfold NL. rewrite char_at_nonneg by lia.
  replace (Z.to_nat (p + 1)) with (S (Z.to_nat p)) by lia.
  destruct (nth_error s (Z.to_nat p)) as [c|] eqn:E.
  - rewrite (skipn_cons_nth s _ c E). cbn [c10]. generalize (c10 (skipn (S (Z.to_nat p)) s)). intros X.
    split; [destruct (c =? 10); lia|].
    intros Y. injection Y as ->. change (10 =? 10) with true. cbv iota. lia.
  - split; [|discriminate]. apply nth_error_None in E.
    rewrite !skipn_all2 by lia. cbn. lia.
Qed.

Lemma NL_mono s : forall (k : nat) p, 0 <= p -> NL s (p + Z.of_nat k) <= NL s p.
Proof.
  induction k as [|k IH]; intros p Hp; [replace (p + Z.of_nat 0) with p by lia; lia|].
  replace (p + Z.of_nat (S k)) with ((p + 1) + Z.of_nat k) by lia.
  specialize (IH (p + 1) ltac:(lia)). destruct (NL_step s p Hp) as [A _]. lia.
Qed.
Lemma NL_le s p q : 0 <= p -> p <= q -> NL s q <= NL s p.
Proof. intros Hp Hq. replace q with (p + Z.of_nat (Z.to_nat (q - p))) by lia. apply NL_mono. exact Hp. Qed.

Lemma zmatch {A} (k : positive) (c : Z) (x y : A) :
  (if c =? Z.pos k then x else y) = (if c =? Z.pos k then x else y).
Proof. reflexivity. Qed.

Lemma ref_label_lf : forall fuel s pos mx lines le lines',
  ref_label fuel s pos mx lines = Some (Some le, lines') -> 0 <= pos ->
  pos <= le /\ lines' + NL s le <= lines + NL s pos /\ lines <= lines'.
Proof.
  induction fuel as [|f IH]; intros s pos mx lines le lines' H Hp; cbn [ref_label] in H; [discriminate H|].
  destruct (negb (pos <? mx)); [discriminate H|].
  destruct (NL_step s pos Hp) as [S1 S2].
  destruct (char_at s pos) as [c|] eqn:Ec.
  2:{ apply IH in H; [|lia]. lia. }
  destruct (Z.eq_dec c 91) as [->|N1]; [discriminate H|].
  destruct (Z.eq_dec c 93) as [->|N2]; [injection H as <- <-; lia|].
  destruct (Z.eq_dec c 10) as [->|N3]; [apply IH in H; [|lia]; specialize (S2 eq_refl); lia|].
  destruct (Z.eq_dec c 92) as [->|N4].
  - destruct (NL_step s (pos + 1) ltac:(lia)) as [T1 T2].
    apply IH in H; [|lia]. replace (pos + 1 + 1) with (pos + 2) in * by lia.
    destruct ((pos + 1 <? mx) && match char_at s (pos + 1) with Some 10 => true | _ => false end) eqn:E.
    + assert (char_at s (pos + 1) = Some 10).
      { destruct (char_at s (pos + 1)) as [d|]; [|rewrite Bool.andb_false_r in E; discriminate E].
        destruct (Z.eq_dec d 10) as [->|Nd]; [reflexivity|].
        exfalso. destruct d as [|q|q]; try (rewrite Bool.andb_false_r in E; discriminate E).
        do 4 (try destruct q as [q|q|]); try (rewrite Bool.andb_false_r in E; discriminate E). contradiction Nd; reflexivity. }
      specialize (T2 H0). lia.
    + lia.
  - assert (E : ref_label f s (pos + 1) mx lines = Some (Some le, lines')).
    { destruct c as [|q|q]; try exact H. do 7 (try destruct q as [q|q|]); try exact H.
      all: try (contradiction N1; reflexivity); try (contradiction N2; reflexivity);
           try (contradiction N3; reflexivity); try (contradiction N4; reflexivity). }
    apply IH in E; [|lia]. lia.
Qed.

Lemma skip_ws_nl_lf : forall fuel s pos mx lines p' lines',
  skip_ws_nl fuel s pos mx lines = (p', lines') -> 0 <= pos ->
  pos <= p' /\ lines' + NL s p' <= lines + NL s pos /\ lines <= lines'.
Proof.
  induction fuel as [|f IH]; intros s pos mx lines p' lines' H Hp; cbn [skip_ws_nl] in H; [injection H as <- <-; lia|].
  destruct (negb (pos <? mx)); [injection H as <- <-; lia|].
  destruct (NL_step s pos Hp) as [S1 S2].
  destruct (char_at s pos) as [c|] eqn:Ec; [|injection H as <- <-; lia].
  destruct (Z.eq_dec c 10) as [->|N3]; [apply IH in H; [|lia]; specialize (S2 eq_refl); lia|].
  assert (E : (if is_space c then skip_ws_nl f s (pos + 1) mx lines else (pos, lines)) = (p', lines')).
  { destruct c as [|q|q]; try exact H. do 4 (try destruct q as [q|q|]); try exact H. contradiction N3; reflexivity. }
  destruct (is_space c); [apply IH in E; [|lia]; lia | injection E as <- <-; lia].
Qed.

Lemma skip_sp_ge : forall fuel s pos mx, pos <= skip_sp fuel s pos mx.
Proof.
  induction fuel as [|f IH]; intros s pos mx; cbn [skip_sp]; [lia|].
  destruct (negb (pos <? mx)); [lia|]. destruct (char_at s pos) as [c|]; [|lia].
  destruct (is_space c); [specialize (IH s (pos + 1) mx); lia | lia].
Qed.

Lemma title_loop_lf : forall fuel s start pos mx marker lines,
  0 <= pos -> l_ok (title_loop fuel s start pos mx marker lines) = true ->
  pos <= l_pos (title_loop fuel s start pos mx marker lines)
  /\ l_lines (title_loop fuel s start pos mx marker lines) + NL s (l_pos (title_loop fuel s start pos mx marker lines))
     <= lines + NL s pos
  /\ lines <= l_lines (title_loop fuel s start pos mx marker lines).
Proof.
  induction fuel as [|f IH]; intros s start pos mx marker lines Hp H; cbn [title_loop] in *; [discriminate H|].
  destruct (negb (pos <? mx)); [discriminate H|].
  destruct (NL_step s pos Hp) as [S1 S2].
  destruct (char_at s pos) as [c|] eqn:Ec.
  2:{ specialize (IH s start (pos + 1) mx marker lines ltac:(lia) H). lia. }
  destruct (c =? marker); [cbn [l_pos l_lines]; lia|].
  destruct ((c =? 40) && (marker =? 41)); [discriminate H|].
  destruct (c =? 10) eqn:E10.
  { assert (c = 10) by lia. subst c. specialize (S2 eq_refl).
    specialize (IH s start (pos + 1) mx marker (lines + 1) ltac:(lia) H). lia. }
  destruct ((c =? 92) && (pos + 1 <? mx)).
  - destruct (NL_step s (pos + 1) ltac:(lia)) as [T1 T2]. replace (pos + 1 + 1) with (pos + 2) in * by lia.
    match type of H with l_ok (title_loop f s start (pos + 2) mx marker ?L) = true =>
      specialize (IH s start (pos + 2) mx marker L ltac:(lia) H); set (LL := L) in * end.
    assert (LL + NL s (pos + 2) <= lines + NL s (pos + 1) /\ lines <= LL).
    { unfold LL. destruct (char_at s (pos + 1)) as [d|]; [|lia].
      destruct (Z.eq_dec d 10) as [->|Nd]; [specialize (T2 eq_refl); lia|].
      assert (E : match d with 10 => lines + 1 | _ => lines end = lines).
      { destruct d as [|q|q]; try reflexivity. do 4 (try destruct q as [q|q|]); try reflexivity. contradiction Nd; reflexivity. }
      rewrite E. lia. }
    lia.
  - specialize (IH s start (pos + 1) mx marker lines ltac:(lia) H). lia.
Qed.

Lemma parse_link_title_lf s pos mx : 0 <= pos -> l_ok (parse_link_title s pos mx) = true ->
  pos <= l_pos (parse_link_title s pos mx)
  /\ l_lines (parse_link_title s pos mx) + NL s (l_pos (parse_link_title s pos mx)) <= NL s pos
  /\ 0 <= l_lines (parse_link_title s pos mx).
Proof.
  unfold parse_link_title. intros Hp H.
  destruct (mx <=? pos); [discriminate H|].
  destruct (char_at s pos) as [m|]; [|discriminate H].
  destruct ((m =? 34) || (m =? 39) || (m =? 40)); [|discriminate H].
  destruct (title_loop_lf (S (length s)) s pos (pos + 1) mx _ 0 ltac:(lia) H) as (A & B & C).
  destruct (NL_step s pos Hp) as [S1 _]. lia.
Qed.

Lemma dest_angle_ge : forall fuel s start pos mx, 0 <= pos ->
  l_ok (dest_angle fuel s start pos mx) = true ->
  pos <= l_pos (dest_angle fuel s start pos mx) /\ l_lines (dest_angle fuel s start pos mx) = 0.
Proof.
  induction fuel as [|f IH]; intros s start pos mx Hp H; cbn [dest_angle] in *; [discriminate H|].
  destruct (negb (pos <? mx)); [discriminate H|].
  destruct (char_at s pos) as [c|].
  2:{ specialize (IH s start (pos + 1) mx ltac:(lia) H). lia. }
  destruct (Z.eq_dec c 10) as [->|N1]; [discriminate H|].
  destruct (Z.eq_dec c 60) as [->|N2]; [discriminate H|].
  destruct (Z.eq_dec c 62) as [->|N3]; [cbn [l_pos l_lines]; lia|].
  destruct (Z.eq_dec c 92) as [->|N4].
  - destruct (pos + 1 <? mx).
    + specialize (IH s start (pos + 2) mx ltac:(lia) H). lia.
    + specialize (IH s start (pos + 1) mx ltac:(lia) H). lia.
  - assert (E : forall A (a b c0 d e : A),
        match c with 10 => a | 60 => b | 62 => c0 | 92 => d | _ => e end = e).
    { intros A a b c0 d e. destruct c as [|q|q]; try reflexivity. do 7 (try destruct q as [q|q|]); try reflexivity.
      all: try (contradiction N1; reflexivity); try (contradiction N2; reflexivity);
           try (contradiction N3; reflexivity); try (contradiction N4; reflexivity). }
    rewrite E in *. specialize (IH s start (pos + 1) mx ltac:(lia) H). lia.
Qed.

Lemma dest_bare_ge : forall fuel s pos mx level p l, 0 <= pos ->
  dest_bare fuel s pos mx level = Some (p, l) -> pos <= p.
Proof.
  induction fuel as [|f IH]; intros s pos mx level p l Hp H; cbn [dest_bare] in H; [injection H as <- <-; lia|].
  destruct (negb (pos <? mx)); [injection H as <- <-; lia|].
  destruct (char_at s pos) as [code|]; [|injection H as <- <-; lia].
  destruct ((code =? 32) || (code <? 32) || (code =? 127)); [injection H as <- <-; lia|].
  destruct ((code =? 92) && (pos + 1 <? mx)).
  - destruct (char_at s (pos + 1)) as [d|]; [|apply IH in H; lia].
    destruct (Z.eq_dec d 32) as [->|Nd]; [injection H as <- <-; lia|].
    assert (E : dest_bare f s (pos + 2) mx level = Some (p, l)).
    { destruct d as [|q|q]; try exact H. do 6 (try destruct q as [q|q|]); try exact H. contradiction Nd; reflexivity. }
    apply IH in E; lia.
  - destruct (code =? 40).
    + destruct (32 <? level + 1); [discriminate H|]. apply IH in H; lia.
    + destruct (code =? 41).
      * destruct (level =? 0); [injection H as <- <-; lia|]. apply IH in H; lia.
      * apply IH in H; lia.
Qed.

Lemma parse_link_destination_ge s pos mx : 0 <= pos -> l_ok (parse_link_destination s pos mx) = true ->
  pos <= l_pos (parse_link_destination s pos mx) /\ l_lines (parse_link_destination s pos mx) = 0.
Proof.
  unfold parse_link_destination. intros Hp H.
  assert (B : l_ok (match dest_bare (S (length s)) s pos mx 0 with
                    | None => lfail
                    | Some (p, level) => if p =? pos then lfail else if negb (level =? 0) then lfail
                                         else mkL true p 0 (unescape_all (slice s pos p)) end) = true ->
              pos <= l_pos (match dest_bare (S (length s)) s pos mx 0 with
                    | None => lfail
                    | Some (p, level) => if p =? pos then lfail else if negb (level =? 0) then lfail
                                         else mkL true p 0 (unescape_all (slice s pos p)) end)
              /\ l_lines (match dest_bare (S (length s)) s pos mx 0 with
                    | None => lfail
                    | Some (p, level) => if p =? pos then lfail else if negb (level =? 0) then lfail
                                         else mkL true p 0 (unescape_all (slice s pos p)) end) = 0).
  { destruct (dest_bare (S (length s)) s pos mx 0) as [[p level]|] eqn:DB; [|discriminate].
    apply dest_bare_ge in DB; [|exact Hp].
    destruct (p =? pos); [discriminate|]. destruct (negb (level =? 0)); [discriminate|]. cbn [l_pos l_lines]. lia. }
  destruct (char_at s pos) as [c|]; [|exact (B H)].
  destruct (Z.eq_dec c 60) as [->|N].
  - destruct (dest_angle_ge (S (length s)) s pos (pos + 1) mx ltac:(lia) H). lia.
  - assert (E : forall A (a b : A), match c with 60 => a | _ => b end = b).
    { intros A a b. destruct c as [|q|q]; try reflexivity. do 6 (try destruct q as [q|q|]); try reflexivity. contradiction N; reflexivity. }
    rewrite E in *. exact (B H).
Qed.

Lemma c10_firstn_skipn : forall (k n : nat) (s : str),
  (forall i, (n <= i < n + k)%nat -> nth_error s i <> Some 10) -> c10 (firstn k (skipn n s)) = 0.
Proof.
  induction k as [|k IH]; intros n s H; [reflexivity|].
  destruct (nth_error s n) as [c|] eqn:E.
  - rewrite (skipn_cons_nth s n c E). cbn [firstn c10]. rewrite IH by (intros i Hi; apply H; lia).
    assert (c <> 10) by (intros ->; apply (H n); [lia | exact E]).
    destruct (c =? 10) eqn:X; lia.
  - apply nth_error_None in E. rewrite skipn_all2 by lia. reflexivity.
Qed.

Lemma c10_firstn_S : forall (k : nat) (l : str), c10 (firstn (S k) l) <= c10 (firstn k l) + 1.
Proof.
  induction k as [|k IH]; intros l.
  - destruct l as [|c l]; cbn; [lia|]. destruct (c =? 10); lia.
  - destruct l as [|c l]; [cbn; lia|]. specialize (IH l). cbn [firstn c10] in *. lia.
Qed.

Lemma c10_rep32 k : c10 (rep 32 k) = 0.
Proof. unfold rep. induction (Z.to_nat k) as [|n IH]; [reflexivity|]. cbn [repeat_z c10]. rewrite IH. reflexivity. Qed.

Lemma c10_slice_free (s : str) a e : 0 <= a -> 0 <= e ->
  (forall p, a <= p < e -> py_idx s p <> Ok 10) ->
  c10 (slice s a e) = 0 /\ c10 (slice s a (e + 1)) <= 1.
Proof.
  intros Ha He H. pose proof (len_nonneg s) as Ln.
  rewrite !slice_nonneg by lia.
  assert (R : Z.min (e + 1) (len s) = Z.min e (len s) \/ Z.min (e + 1) (len s) = Z.min e (len s) + 1) by lia.
  assert (HA : a <= Z.min a (len s) \/ Z.min a (len s) = len s) by lia.
  assert (HE : Z.min e (len s) <= e) by lia.
  assert (HA0 : 0 <= Z.min a (len s)) by lia.
  remember (Z.min a (len s)) as A. remember (Z.min e (len s)) as E0. remember (Z.min (e + 1) (len s)) as E1.
  clear HeqE1 HeqE0.
  assert (G : forall (k : nat), Z.of_nat k <= E0 - A -> c10 (firstn k (skipn (Z.to_nat A) s)) = 0).
  { intros k Hk. apply c10_firstn_skipn. intros i Hi E.
    assert (Z.of_nat i < len s).
    { assert (i < length s)%nat by (apply nth_error_Some; congruence). unfold len. lia. }
    apply (H (Z.of_nat i)); [lia|]. apply py_idx_nth; [lia|]. rewrite Nat2Z.id. exact E. }
  split.
  - destruct (E0 <=? A) eqn:X; [reflexivity|]. apply G. lia.
  - destruct (E1 <=? A) eqn:X; [cbn; lia|].
    destruct R as [R|R]; rewrite R.
    + rewrite G by lia. lia.
    + replace (Z.to_nat (E0 + 1 - A)) with (S (Z.to_nat (E0 - A))) by lia.
      pose proof (c10_firstn_S (Z.to_nat (E0 - A)) (skipn (Z.to_nat A) s)) as F.
      rewrite (G (Z.to_nat (E0 - A))) in F by lia. exact F.
Qed.

Lemma c10_lstrip p : forall s, c10 (lstrip_by p s) <= c10 s.
Proof. induction s as [|c s IH]; cbn [lstrip_by c10]; [lia|]. destruct (p c); [destruct (c =? 10); lia | cbn [c10]; lia]. Qed.
Lemma c10_rev s : c10 (rev s) = c10 s.
Proof. induction s as [|c s IH]; cbn [rev c10]; [reflexivity|]. rewrite c10_app. cbn [c10]. lia. Qed.
Lemma c10_strip p s : c10 (strip_by p s) <= c10 s.
Proof.
  unfold strip_by, rstrip_by. rewrite c10_rev.
  pose proof (c10_lstrip p (rev (lstrip_by p s))). rewrite c10_rev in H. pose proof (c10_lstrip p s). lia.
Qed.

Lemma ref_lines_bound s fuel mx labelEnd lines0 p1 lines1 p2 lines2 :
  ref_label fuel s 1 mx 0 = Some (Some labelEnd, lines0) ->
  skip_ws_nl fuel s (labelEnd + 2) mx lines0 = (p1, lines1) ->
  l_ok (parse_link_destination s p1 mx) = true ->
  skip_ws_nl fuel s (l_pos (parse_link_destination s p1 mx)) mx (lines1 + l_lines (parse_link_destination s p1 mx)) = (p2, lines2) ->
  (0 <= lines1 + l_lines (parse_link_destination s p1 mx) <= c10 s)
  /\ (l_ok (parse_link_title s p2 mx) = true -> 0 <= lines2 + l_lines (parse_link_title s p2 mx) <= c10 s).
Proof.
  intros RL W1 RO W2.
  apply ref_label_lf in RL; [|lia]. destruct RL as (R1 & R2 & R3).
  apply skip_ws_nl_lf in W1; [|lia]. destruct W1 as (A1 & A2 & A3).
  destruct (parse_link_destination_ge s p1 mx ltac:(lia) RO) as [D1 D2].
  apply skip_ws_nl_lf in W2; [|lia]. destruct W2 as (B1 & B2 & B3).
  pose proof (NL_le s labelEnd (labelEnd + 2) ltac:(lia) ltac:(lia)).
  pose proof (NL_le s p1 (l_pos (parse_link_destination s p1 mx)) ltac:(lia) ltac:(lia)).
  pose proof (NL_total s 1). pose proof (NL_nonneg s (l_pos (parse_link_destination s p1 mx))). pose proof (NL_nonneg s p2).
  split; [lia|]. intros TO.
  destruct (parse_link_title_lf s p2 mx ltac:(lia) TO) as (C1 & C2 & C3).
  pose proof (NL_nonneg s (l_pos (parse_link_title s p2 mx))). lia.
Qed.

Lemma ref_parse_lines rf cf s rawlabel label title href lines :
  ref_parse rf cf s = Some (rawlabel, label, title, href, lines) -> 0 <= lines <= c10 s.
Proof.
  intros H. destruct (ref_parse_inv _ _ _ _ _ _ _ _ H) as (le & l0 & p1 & l1 & p2 & l2 & RL & W1 & RO & _ & _ & W2 & L).
  destruct (ref_lines_bound _ _ _ _ _ _ _ _ _ RL W1 RO W2) as [B1 B2]. destruct L as [->|[TO ->]]; [exact B1 | exact (B2 TO)].
Qed.
