(* The line tables built by StateBlock.__init__ (state_init): accumulator independence, shift,
   independence of the total length on LF-terminated input, concatenation (C07), and the
   fresh tables as the columns of one list of rows, one per line of the source, with what the
   scan promises of each row (C01 / C03). *)
From MD Require Import Base.Py Base.Str Model.Utils Model.StateBlock Lemmas.StrLemmas
     Lemmas.BlockLemmas.
From Coq Require Import ZifyBool.

Definition scan_cat (r : scan) (bM eM tS sC : list Z) : scan :=
  mkScan (sc_bM r ++ bM) (sc_eM r ++ eM) (sc_tS r ++ tS) (sc_sC r ++ sC)
         (sc_found r) (sc_start r) (sc_indent r) (sc_offset r).

Lemma scan_step_cat n r bM eM tS sC pos c :
  scan_step n (scan_cat r bM eM tS sC) pos c = scan_cat (scan_step n r pos c) bM eM tS sC.
Proof.
  unfold scan_step, scan_cat. cbn [sc_bM sc_eM sc_tS sc_sC sc_found sc_start sc_indent sc_offset].
  destruct (negb (sc_found r) && is_space c); [reflexivity|].
  destruct ((c =? 10) || (pos =? n - 1)); reflexivity.
Qed.

Lemma scan_loop_cat n : forall src r bM eM tS sC pos,
  scan_loop n (scan_cat r bM eM tS sC) pos src = scan_cat (scan_loop n r pos src) bM eM tS sC.
Proof.
  induction src as [|c src IH]; intros r bM eM tS sC pos; cbn [scan_loop]; [reflexivity|].
  rewrite scan_step_cat. apply IH.
Qed.

Definition scan_shift (d : Z) (r : scan) : scan :=
  mkScan (map (Z.add d) (sc_bM r)) (map (Z.add d) (sc_eM r)) (sc_tS r) (sc_sC r)
         (sc_found r) (d + sc_start r) (sc_indent r) (sc_offset r).

Lemma scan_step_shift d n r pos c :
  scan_step (d + n) (scan_shift d r) (d + pos) c = scan_shift d (scan_step n r pos c).
Proof.
  unfold scan_step, scan_shift. cbn [sc_bM sc_eM sc_tS sc_sC sc_found sc_start sc_indent sc_offset].
  destruct (negb (sc_found r) && is_space c); [reflexivity|].
  assert (Eq : (d + pos =? d + n - 1) = (pos =? n - 1)) by (destruct (Z.eqb_spec (d + pos) (d + n - 1)), (Z.eqb_spec pos (n - 1)); lia || reflexivity).
  rewrite Eq.
  destruct ((c =? 10) || (pos =? n - 1)); [|reflexivity].
  cbn [sc_bM sc_eM sc_tS sc_sC sc_found sc_start sc_indent sc_offset map].
  destruct (c =? 10); f_equal; try lia; f_equal; lia.
Qed.

Lemma scan_loop_shift d n : forall src r pos,
  scan_loop (d + n) (scan_shift d r) (d + pos) src = scan_shift d (scan_loop n r pos src).
Proof.
  induction src as [|c src IH]; intros r pos; cbn [scan_loop]; [reflexivity|].
  rewrite scan_step_shift. replace (d + pos + 1) with (d + (pos + 1)) by lia. apply IH.
Qed.

(* every character is a line feed or sits at a position that is the last one for neither length *)
Fixpoint len_free (n1 n2 : Z) (pos : Z) (src : str) : Prop :=
  match src with
  | [] => True
  | c :: rest => (c = 10 \/ (pos <> n1 - 1 /\ pos <> n2 - 1)) /\ len_free n1 n2 (pos + 1) rest
  end.

Lemma scan_loop_len_free n1 n2 : forall src r pos,
  len_free n1 n2 pos src -> scan_loop n1 r pos src = scan_loop n2 r pos src.
Proof.
  induction src as [|c src IH]; intros r pos H; cbn [scan_loop]; [reflexivity|].
  destruct H as [Hc Hr]. rewrite (IH _ _ Hr). f_equal.
  unfold scan_step. destruct (negb (sc_found r) && is_space c); [reflexivity|].
  destruct Hc as [-> | [H1 H2]].
  - change (10 =? 10) with true. reflexivity.
  - assert (E1 : (pos =? n1 - 1) = false) by (apply Z.eqb_neq; exact H1).
    assert (E2 : (pos =? n2 - 1) = false) by (apply Z.eqb_neq; exact H2). rewrite E1, E2. reflexivity.
Qed.

Lemma len_free_lf_terminated n1 n2 : forall a pos,
  pos + len a + 1 <= n1 -> pos + len a + 1 <= n2 -> len_free n1 n2 pos (a ++ [10]).
Proof.
  induction a as [|c a IH]; intros pos H1 H2; cbn [app len_free].
  - split; [left; reflexivity | exact I].
  - assert (Hl : len (c :: a) = 1 + len a) by (unfold len; cbn [length]; lia).
    assert (0 <= len a) by (unfold len; lia).
    split; [right; lia|]. apply IH; lia.
Qed.

Definition fresh_at (r : scan) (p : Z) : Prop :=
  sc_found r = false /\ sc_start r = p /\ sc_indent r = 0 /\ sc_offset r = 0.

Lemma scan_loop_ends_fresh n a r pos :
  fresh_at (scan_loop n r pos (a ++ [10])) (pos + len a + 1).
Proof.
  rewrite scan_loop_app. cbn [scan_loop].
  destruct (scan_step_lf n (scan_loop n r pos a) (pos + len a)) as (H1 & H2 & H3 & H4 & _).
  unfold fresh_at. repeat split; assumption.
Qed.

Definition scan0 : scan := mkScan [] [] [] [] false 0 0 0.

Lemma scan_fresh_eq r p : fresh_at r p ->
  r = scan_cat (scan_shift p scan0) (sc_bM r) (sc_eM r) (sc_tS r) (sc_sC r).
Proof.
  intros (H1 & H2 & H3 & H4). destruct r as [bM eM tS sC f st ind off]. cbn in *. subst.
  unfold scan_cat, scan_shift, scan0. cbn. rewrite Z.add_0_r. reflexivity.
Qed.

(* scanning  a LF b  inside a text of length  len a + 1 + len b : first the rows of  a LF  (as
   if scanned alone), then the rows of b moved right by  len a + 1  *)
Theorem scan_concat a b :
  let d := len a + 1 in
  let ra := scan_loop d scan0 0 (a ++ [10]) in
  let rb := scan_loop (len b) scan0 0 b in
  scan_loop (d + len b) scan0 0 ((a ++ [10]) ++ b)
  = scan_cat (scan_shift d rb) (sc_bM ra) (sc_eM ra) (sc_tS ra) (sc_sC ra).
Proof.
  intros d ra rb.
  assert (Hla : len (a ++ [10]) = d).
  { unfold d, len. rewrite app_length. cbn [length]. lia. }
  assert (Hb0 : 0 <= len b) by (unfold len; lia).
  assert (Ha0 : 0 <= len a) by (unfold len; lia).
  rewrite scan_loop_app. rewrite Hla. rewrite Z.add_0_l.
  rewrite (scan_loop_len_free (d + len b) d (a ++ [10]) scan0 0)
    by (apply len_free_lf_terminated; unfold d; lia).
  fold ra.
  assert (Hf : fresh_at ra d).
  { unfold ra. pose proof (scan_loop_ends_fresh d a scan0 0) as H. rewrite Z.add_0_l in H. exact H. }
  rewrite (scan_fresh_eq ra d Hf) at 1.
  rewrite scan_loop_cat.
  replace d with (d + 0) at 3 by lia.
  rewrite scan_loop_shift. reflexivity.
Qed.

(* the tables of  a LF LF b : those of  a LF , then those of b moved by len a + 2.  The sentinel
   row of the first part doubles as the row of the separating blank line. *)
Theorem tables_concat a b env toks env1 toks1 env2 toks2 :
  let A := a ++ [10] in
  let d := len A + 1 in
  let s := state_init (A ++ [10] ++ b) env toks in
  let sa := state_init A env1 toks1 in
  let sb := state_init b env2 toks2 in
  b_bMarks s = b_bMarks sa ++ map (Z.add d) (b_bMarks sb)
  /\ b_eMarks s = b_eMarks sa ++ map (Z.add d) (b_eMarks sb)
  /\ b_tShift s = b_tShift sa ++ b_tShift sb
  /\ b_sCount s = b_sCount sa ++ b_sCount sb
  /\ b_bsCount s = b_bsCount sa ++ b_bsCount sb
  /\ b_lineMax s = b_lineMax sa + 1 + b_lineMax sb.
Proof.
  intros A d s sa sb.
  assert (HA : len A = len a + 1) by (unfold A, len; rewrite app_length; cbn [length]; lia).
  assert (Hdoc : A ++ [10] ++ b = ((a ++ [10]) ++ [10]) ++ b) by (unfold A; rewrite <- !app_assoc; reflexivity).
  assert (Hlen : len (A ++ [10] ++ b) = d + len b).
  { unfold d, len. rewrite !app_length. cbn [length]. unfold len in HA. lia. }
  pose proof (scan_concat (a ++ [10]) b) as H. cbv zeta in H.
  fold A in H. replace (len A + 1) with d in H by reflexivity.
  (* the scan of A LF with length d is the scan of A with length len A plus one blank row *)
  assert (HAl : scan_loop d scan0 0 (A ++ [10])
                = (let ra := scan_loop (len A) scan0 0 A in
                   mkScan (len A :: sc_bM ra) (len A :: sc_eM ra) (0 :: sc_tS ra) (0 :: sc_sC ra) false (len A + 1) 0 0)).
  { rewrite scan_loop_app. rewrite Z.add_0_l.
    assert (LF : len_free d (len A) 0 A) by (apply (len_free_lf_terminated d (len A) a 0); unfold d; lia).
    rewrite (scan_loop_len_free d (len A) A scan0 0 LF).
    cbv zeta. set (ra := scan_loop (len A) scan0 0 A).
    assert (Hf : fresh_at ra (len A)).
    { unfold ra. pose proof (scan_loop_ends_fresh (len A) a scan0 0) as Hx.
      rewrite Z.add_0_l in Hx. rewrite <- HA in Hx. exact Hx. }
    destruct Hf as (F1 & F2 & F3 & F4).
    cbn [scan_loop]. unfold scan_step. rewrite F1. cbn [negb andb]. change (is_space 10) with false. cbv iota.
    change (10 =? 10) with true. cbn [orb]. cbv iota. rewrite F2, F3, F4. reflexivity. }
  rewrite HAl in H. cbv zeta in H.
  set (ra := scan_loop (len A) scan0 0 A) in *.
  set (rb := scan_loop (len b) scan0 0 b) in *.
  unfold s, sa, sb, state_init. rewrite Hlen. rewrite Hdoc. cbv zeta.
  fold scan0. fold A. rewrite H. fold ra rb.
  unfold scan_cat, scan_shift.
  cbn [sc_bM sc_eM sc_tS sc_sC sc_found sc_start sc_indent sc_offset
       b_bMarks b_eMarks b_tShift b_sCount b_bsCount b_lineMax].
  assert (R1 : forall x l (m : list Z), rev (x :: map (Z.add d) l ++ m) = rev m ++ map (Z.add d) (rev l) ++ [x]).
  { intros x l m. cbn [rev]. rewrite rev_app_distr, map_rev, app_assoc. reflexivity. }
  assert (R2 : forall (x : Z) l (m : list Z), rev (x :: l ++ m) = rev m ++ rev l ++ [x]).
  { intros x l m. cbn [rev]. rewrite rev_app_distr, app_assoc. reflexivity. }
  assert (Lm : forall l : list Z, len (map (Z.add d) l) = len l) by (intros l; unfold len; rewrite map_length; reflexivity).
  repeat split.
  - rewrite R1. cbn [rev]. rewrite map_app. cbn [map]. reflexivity.
  - rewrite R1. cbn [rev]. rewrite map_app. cbn [map]. reflexivity.
  - rewrite R2. cbn [rev]. reflexivity.
  - rewrite R2. cbn [rev]. reflexivity.
  - rewrite R1. cbn [rev]. rewrite !map_app, !map_map. cbn [map]. reflexivity.
  - unfold len. rewrite !rev_length. cbn [length]. rewrite !app_length, !map_length. cbn [length]. lia.
Qed.

(* what the scan gives every recorded row, said of its four accumulators as they stand (latest row first) *)
Fixpoint rows_ok (n : Z) (bM eM tS sC : list Z) : Prop :=
  match bM, eM, tS, sC with
  | [], [], [], [] => True
  | b :: bM', e :: eM', t :: tS', s :: sC' =>
      0 <= b /\ 0 <= t /\ 0 <= s /\ b + t <= e /\ e <= n /\ rows_ok n bM' eM' tS' sC'
  | _, _, _, _ => False
  end.

Lemma tb_in_range l i : 0 <= i < len l -> exists v, tb l i = Ok v.
Proof.
  intros H. unfold tb, len in *. cbv zeta. assert (E : (i <? 0) = false) by lia. rewrite !E.
  destruct (nth_error l (Z.to_nat i)) eqn:N; [eexists; reflexivity|].
  apply nth_error_None in N. lia.
Qed.

Lemma tb_map {A} (f : A -> Z) (L : list A) l v : tb (map f L) l = Ok v ->
  exists w, nth_error L (Z.to_nat (if l <? 0 then l + len L else l)) = Some w /\ v = f w.
Proof.
  unfold tb, len. cbv zeta. rewrite map_length, nth_error_map.
  destruct (_ <? 0); [discriminate|]. destruct (nth_error L _) as [w|]; [|discriminate].
  intros E. injection E as <-. exists w. split; reflexivity.
Qed.

Lemma tb_map3 {A} (f g h : A -> Z) (L : list A) l x y z : 0 <= l ->
  tb (map f L) l = Ok x -> tb (map g L) l = Ok y -> tb (map h L) l = Ok z ->
  exists w, nth_error L (Z.to_nat l) = Some w /\ x = f w /\ y = g w /\ z = h w.
Proof.
  intros Hl Ex Ey Ez. assert (X : (l <? 0) = false) by lia.
  destruct (tb_map _ _ _ _ Ex) as (w & Nw & ->). destruct (tb_map _ _ _ _ Ey) as (w' & Nw' & ->). destruct (tb_map _ _ _ _ Ez) as (w'' & Nw'' & ->).
  rewrite X in *. rewrite Nw in Nw', Nw''. injection Nw' as <-. injection Nw'' as <-. exists w. repeat split. exact Nw.
Qed.

Lemma scan_loop_keeps full (I : scan -> Z -> Prop) :
  (forall r pos c, I r pos -> 0 <= pos -> py_idx full pos = Ok c -> I (scan_step (len full) r pos c) (pos + 1)) ->
  forall rest done r, full = done ++ rest -> I r (len done) -> I (scan_loop (len full) r (len done) rest) (len full).
Proof.
  intros STEP. induction rest as [|c rest IH]; intros done r E H; cbn [scan_loop].
  - rewrite E, app_nil_r. exact H.
  - replace (len done + 1) with (len (done ++ [c])) by (rewrite len_app; unfold len; cbn; lia).
    apply IH; [rewrite <- app_assoc; exact E|].
    replace (len (done ++ [c])) with (len done + 1) by (rewrite len_app; unfold len; cbn; lia).
    apply STEP; [exact H | apply len_nonneg|]. rewrite E. apply py_idx_app.
Qed.

(* the four recorded entries of a line: start mark, end mark, indentation in characters and in columns *)
Record srow := mkRow { row_b : Z; row_e : Z; row_t : Z; row_s : Z }.

Section Fresh.
(* [C b p s]: s is the column reached at position p by the blanks from b on.  It is a parameter: all that is asked of
   it is that it holds of column 0 at the line start and is kept when the scan steps over a blank.  Two readings are
   used: the trivial one (TI, SN, rows_ok and the lengths say nothing of columns) and [s = gcols src b p 0 0], the
   count getLines makes, for the column invariant CI (Lemmas/NoRaise.v) *)
Context (src : str) (C : Z -> Z -> Z -> Prop).
Context (C_start : forall b, C b b 0).
Context (C_step : forall b p s c, 0 <= b <= p -> C b p s -> py_idx src p = Ok c -> is_space c = true ->
  C b (p + 1) (if c =? 9 then s + (4 - s mod 4) else s + 1)).

(* what the scan promises of a line: marks inside the source, no line feed before the end mark and one at it unless
   the source ends there, a non-blank at the logical start of a line that has text, the columns of the indentation *)
Definition line_row (w : srow) : Prop :=
  0 <= row_b w /\ 0 <= row_t w /\ row_b w + row_t w <= row_e w <= len src
  /\ (forall p, row_b w <= p < row_e w -> py_idx src p <> Ok 10)
  /\ (row_e w < len src -> py_idx src (row_e w) = Ok 10)
  /\ (row_b w + row_t w < row_e w -> exists c, py_idx src (row_b w + row_t w) = Ok c /\ is_space c = false)
  /\ 0 <= row_s w /\ C (row_b w) (row_b w + row_t w) (row_s w).

(* the recorded lines, latest first, tile the source: each starts right after the end mark of the one before;
   [nxt] is where the next one starts *)
Inductive lines : Z -> list srow -> Prop :=
| lines_nil : lines 0 []
| lines_cons w ws : lines (row_b w) ws -> line_row w -> lines (row_e w + 1) (w :: ws).

Lemma lines_Forall nxt ws : lines nxt ws -> Forall line_row ws.
Proof. induction 1; constructor; assumption. Qed.

Lemma lines_before nxt ws : lines nxt ws -> forall w, In w ws -> row_e w < nxt.
Proof.
  induction 1 as [|w0 ws L IH R]; intros w I; [contradiction I|]. destruct I as [<-|I]; [lia|].
  specialize (IH w I). destruct R as (_ & T0 & BE & _). lia.
Qed.

(* the scan before position pos: the finished lines, and the line being read - its blanks counted so far, no line
   feed in it yet, and once a non-blank was seen, the first one sits at its logical start *)
Definition scanL (r : scan) (pos : Z) : Prop :=
  (exists ws, sc_bM r = map row_b ws /\ sc_eM r = map row_e ws /\ sc_tS r = map row_t ws /\ sc_sC r = map row_s ws
              /\ lines (sc_start r) ws)
  /\ 0 <= sc_start r /\ 0 <= sc_indent r /\ 0 <= sc_offset r /\ C (sc_start r) (sc_start r + sc_indent r) (sc_offset r)
  /\ (forall p, sc_start r <= p < pos -> py_idx src p <> Ok 10)
  /\ (pos < len src -> sc_start r + sc_indent r <= pos
        /\ (sc_found r = false -> sc_start r + sc_indent r = pos)
        /\ (sc_found r = true -> sc_start r + sc_indent r < pos
                                 /\ exists c, py_idx src (sc_start r + sc_indent r) = Ok c /\ is_space c = false)).

Lemma scan_step_L r pos c : scanL r pos -> 0 <= pos -> py_idx src pos = Ok c ->
  scanL (scan_step (len src) r pos c) (pos + 1).
Proof.
  intros (W & S0 & I0 & O0 & CO & NL & F) Hp Ec. destruct (py_idx_get _ _ _ Hp Ec) as [_ PL]. destruct (F PL) as (F1 & F2 & F3).
  assert (NL' : c <> 10 -> forall p, sc_start r <= p < pos + 1 -> py_idx src p <> Ok 10).
  { intros Nc p Hpp. destruct (Z.eq_dec p pos) as [->|N]; [rewrite Ec; congruence | apply NL; lia]. }
  unfold scan_step.
  destruct (negb (sc_found r) && is_space c) eqn:E.
  - (* one more blank of the indentation: it is the character at sc_start + sc_indent *)
    assert (Sp : is_space c = true) by (destruct (is_space c); [reflexivity | rewrite Bool.andb_false_r in E; discriminate E]).
    assert (Fd : sc_found r = false) by (destruct (sc_found r); [discriminate E | reflexivity]).
    specialize (F2 Fd). unfold scanL. cbn [sc_bM sc_eM sc_tS sc_sC sc_start sc_indent sc_found sc_offset].
    split; [exact W|]. split; [exact S0|]. split; [lia|].
    split; [pose proof (Z.mod_pos_bound (sc_offset r) 4 ltac:(lia)); destruct (c =? 9); lia|].
    split; [replace (sc_start r + (sc_indent r + 1)) with (pos + 1) by lia; rewrite <- F2 in Ec |- *; apply C_step; [lia | exact CO | exact Ec | exact Sp]|].
    split; [apply NL'; unfold is_space in Sp; lia|].
    intros _. split; [lia|]. split; [intros _; lia | discriminate].
  - destruct ((c =? 10) || (pos =? len src - 1)) eqn:E2.
    + (* the line ends: at the line feed, or behind the last character *)
      cbv zeta. unfold scanL. cbn [sc_bM sc_eM sc_tS sc_sC sc_start sc_indent sc_found sc_offset].
      set (e := if c =? 10 then pos else pos + 1).
      assert (He : pos <= e <= len src /\ (c =? 10 = true -> e = pos) /\ (c =? 10 = false -> e = pos + 1)) by (unfold e; destruct (c =? 10); lia).
      split; [|split; [lia|]; split; [lia|]; split; [lia|]; split; [rewrite Z.add_0_r; apply C_start|]; split; [intros p Hpp; lia|]].
      * destruct W as (ws & E1 & E2' & E3 & E4 & L). exists (mkRow (sc_start r) e (sc_indent r) (sc_offset r) :: ws).
        cbn [map row_b row_e row_t row_s]. rewrite <- E1, <- E2', <- E3, <- E4. do 4 (split; [reflexivity|]).
        apply (lines_cons (mkRow (sc_start r) e (sc_indent r) (sc_offset r))); [exact L|].
        unfold line_row. cbn [row_b row_e row_t row_s].
        split; [exact S0|]. split; [exact I0|]. split; [lia|]. split; [|split; [|split; [|split; [exact O0 | exact CO]]]].
        -- intros p Hpp. destruct (c =? 10) eqn:X; [apply NL; lia | apply NL'; lia].
        -- intros Hlt. destruct (c =? 10) eqn:X; [replace e with pos by lia; replace c with 10 in Ec by lia; exact Ec | lia].
        -- intros Hlt. destruct (sc_found r) eqn:Fd; [exact (proj2 (F3 eq_refl))|].
           specialize (F2 eq_refl). destruct (c =? 10) eqn:X; [lia|].
           exists c. rewrite F2. split; [exact Ec | exact E].
      * intros HL. assert (CX : (c =? 10) = true) by (destruct (c =? 10) eqn:X; [reflexivity | lia]).
        split; [lia|]. split; [intros _; lia | discriminate].
    + assert (c <> 10) by lia. unfold scanL. cbn [sc_bM sc_eM sc_tS sc_sC sc_start sc_indent sc_found sc_offset].
      split; [exact W|]. split; [exact S0|]. split; [exact I0|]. split; [exact O0|]. split; [exact CO|]. split; [apply NL'; assumption|].
      intros _. split; [lia|]. split; [discriminate|]. intros _.
      destruct (sc_found r) eqn:Fd; [destruct (F3 eq_refl) as [A B]; split; [lia | exact B]|].
      specialize (F2 eq_refl). split; [lia|]. exists c. rewrite F2. split; [exact Ec | exact E].
Qed.

(* the tables of s are the columns of one list of rows, in line order: the lines of the source and the sentinel row
   behind them; only the last line can end where the source ends *)
Definition fresh_rows (s : bstate) : Prop :=
  exists L : list srow,
    b_bMarks s = map row_b L /\ b_eMarks s = map row_e L /\ b_tShift s = map row_t L /\ b_sCount s = map row_s L
    /\ b_bsCount s = map (fun _ => 0) L /\ len L = b_lineMax s + 1 /\ 0 <= b_lineMax s
    /\ Forall line_row L
    /\ forall l w, nth_error L l = Some w -> Z.of_nat l <= b_lineMax s - 2 -> row_e w < len src.

Theorem state_init_rows env toks : fresh_rows (state_init src env toks).
Proof.
  unfold fresh_rows, state_init. cbv zeta. cbn [b_bMarks b_eMarks b_tShift b_sCount b_bsCount b_lineMax].
  set (r := scan_loop (len src) (mkScan [] [] [] [] false 0 0 0) 0 src). pose proof (len_nonneg src) as Ln.
  assert (HI : scanL r (len src)).
  { apply (scan_loop_keeps src scanL scan_step_L src [] _ eq_refl). unfold scanL. cbn.
    split; [exists []; repeat split; constructor|]. do 3 (split; [lia|]). split; [apply C_start|]. split; [intros p Hp; lia|].
    intros _. split; [lia|]. split; [intros _; lia | discriminate]. }
  destruct HI as ((ws & -> & -> & -> & -> & LW) & _). set (z := mkRow (len src) (len src) 0 0).
  assert (EL : len (rev (len src :: map row_b ws)) = Z.of_nat (length ws) + 1) by (unfold len; rewrite rev_length; cbn [length]; rewrite map_length; lia).
  rewrite EL. exists (rev (z :: ws)).
  change (len src :: map row_b ws) with (map row_b (z :: ws)). change (len src :: map row_e ws) with (map row_e (z :: ws)).
  change (0 :: map row_t ws) with (map row_t (z :: ws)). change (0 :: map row_s ws) with (map row_s (z :: ws)).
  rewrite <- !map_rev, map_map. do 5 (split; [reflexivity|]).
  split; [unfold len; rewrite rev_length; cbn [length]; lia|]. split; [lia|]. split.
  - apply Forall_rev. constructor; [|exact (lines_Forall _ _ LW)].
    unfold line_row, z. cbn [row_b row_e row_t row_s]. rewrite Z.add_0_r. repeat split; try lia; try apply C_start; intros; lia.
  - (* a line with a later line behind it ends before that line starts *)
    intros l w Nw Hl. cbn [rev] in Nw. inversion LW as [|w0 ws' L0 R0 E0 E1]; subst ws; [cbn [length] in Hl; lia|].
    cbn [rev length] in Nw, Hl. rewrite !nth_error_app1 in Nw by (rewrite ?app_length, rev_length; cbn [length]; lia).
    apply nth_error_In, in_rev in Nw. pose proof (lines_before _ _ L0 w Nw). destruct R0 as (_ & T0 & BE & _). lia.
Qed.

End Fresh.

Lemma line_row_rows_ok src C : forall ws, Forall (line_row src C) ws ->
  rows_ok (len src) (map row_b ws) (map row_e ws) (map row_t ws) (map row_s ws).
Proof.
  induction 1 as [|w ws (B0 & T0 & BE & _ & _ & _ & S0 & _) _ IH]; cbn [map rows_ok]; [exact I|]. repeat split; try lia. exact IH.
Qed.

Theorem state_init_tables src env toks :
  let s := state_init src env toks in
  len (b_bMarks s) = b_lineMax s + 1 /\ len (b_eMarks s) = b_lineMax s + 1 /\ len (b_tShift s) = b_lineMax s + 1
  /\ len (b_sCount s) = b_lineMax s + 1 /\ len (b_bsCount s) = b_lineMax s + 1 /\ 0 <= b_lineMax s
  /\ rows_ok (len src) (rev (b_bMarks s)) (rev (b_eMarks s)) (rev (b_tShift s)) (rev (b_sCount s)).
Proof.
  destruct (state_init_rows src (fun _ _ _ => True) (fun _ => I) (fun _ _ _ _ _ _ _ _ => I) env toks)
    as (L & Hb & He & Ht & Hs & Hbs & LL & LM & F & _).
  cbv zeta. rewrite Hb, He, Ht, Hs, Hbs. unfold len in *. rewrite !map_length, <- !map_rev. repeat split; try lia.
  apply (line_row_rows_ok src (fun _ _ _ => True)), Forall_rev, F.
Qed.

Corollary state_init_reads_ok src env toks line :
  let s := state_init src env toks in
  0 <= line <= b_lineMax s ->
  exists b e t c bs, tb (b_bMarks s) line = Ok b /\ tb (b_eMarks s) line = Ok e /\ tb (b_tShift s) line = Ok t
                     /\ tb (b_sCount s) line = Ok c /\ tb (b_bsCount s) line = Ok bs.
Proof.
  cbv zeta. intros H.
  destruct (state_init_tables src env toks) as (A & B & C & D & E & _).
  cbv zeta in *.
  assert (G : forall l, len l = b_lineMax (state_init src env toks) + 1 -> exists v, tb l line = Ok v)
    by (intros l Hl; apply tb_in_range; lia).
  destruct (G _ A) as [b Hb]. destruct (G _ B) as [e He]. destruct (G _ C) as [t Ht].
  destruct (G _ D) as [c Hc]. destruct (G _ E) as [bs Hbs].
  exists b, e, t, c, bs. repeat split; assumption.
Qed.
