(* C15: Token.from_dict (Token.as_dict t) = t, for both attribute formats, with and
   without converting children, for every token whose attrs dict has unique keys
   (a fact about every Python dict), recursively. *)
From MD Require Import Base.Py Base.Opt Model.Token.

Fixpoint nodup_keys {V} (m : list (str * V)) : bool :=
  match m with
  | [] => true
  | (k, _) :: m' => negb (mem_str k (map fst m')) && nodup_keys m'
  end.

Fixpoint attrs_okb (t : token) : bool :=
  nodup_keys (tattrs t)
  && match tchildren t with
     | None => true
     | Some l => (fix go (l : list token) : bool := match l with [] => true | x :: l' => attrs_okb x && go l' end) l
     end.

Lemma alookup_absent {V} k (m : list (str * V)) : mem_str k (map fst m) = false -> alookup k m = None.
Proof.
  induction m as [|[k' v] m IH]; simpl; intros H; [reflexivity|].
  apply Bool.orb_false_iff in H. destruct H as [H1 H2]. rewrite H1. apply IH, H2.
Qed.

Lemma aset_absent {V} k (v : V) m : mem_str k (map fst m) = false -> aset k v m = m ++ [(k, v)].
Proof.
  induction m as [|[k' v'] m IH]; simpl; intros H; [reflexivity|].
  apply Bool.orb_false_iff in H. destruct H as [H1 H2]. rewrite H1. rewrite IH by exact H2. reflexivity.
Qed.

Lemma mem_str_app k a b : mem_str k (a ++ b) = mem_str k a || mem_str k b.
Proof. unfold mem_str. apply existsb_app. Qed.

Lemma aset_all {V} (ats : list (str * V)) : forall acc,
  nodup_keys ats = true ->
  (forall k, mem_str k (map fst ats) = true -> mem_str k (map fst acc) = false) ->
  fold_left (fun a kv => aset (fst kv) (snd kv) a) ats acc = acc ++ ats.
Proof.
  induction ats as [|[k v] ats IH]; intros acc ND Dis; simpl.
  - rewrite app_nil_r. reflexivity.
  - simpl in ND. apply Bool.andb_true_iff in ND. destruct ND as [N1 N2]. apply Bool.negb_true_iff in N1.
    assert (Hk : mem_str k (map fst acc) = false).
    { apply Dis. simpl. rewrite str_eqb_refl. reflexivity. }
    rewrite aset_absent by exact Hk. rewrite IH.
    + rewrite <- app_assoc. reflexivity.
    + exact N2.
    + intros k' Hk'. rewrite map_app, mem_str_app. simpl.
      rewrite (Dis k') by (simpl; rewrite Hk'; apply Bool.orb_true_r). simpl.
      destruct (str_eqb_spec k' k) as [->|N]; [congruence | reflexivity].
Qed.

Lemma aval_roundtrip v : aval_of_dval (dval_of_aval v) = Some v.
Proof. destruct v; reflexivity. Qed.

Lemma pairs_to_attrs_enc (ats : list (str * aval)) : forall acc,
  pairs_to_attrs (map (fun kv => DList [DStr (fst kv); dval_of_aval (snd kv)]) ats) acc
  = Some (fold_left (fun a kv => aset (fst kv) (snd kv) a) ats acc).
Proof. induction ats as [|[k v] ats IH]; intros acc; simpl; [reflexivity|]. rewrite aval_roundtrip. apply IH. Qed.

Lemma dict_to_attrs_enc (ats : list (str * aval)) : forall acc,
  dict_to_attrs (map (fun kv => (fst kv, dval_of_aval (snd kv))) ats) acc
  = Some (fold_left (fun a kv => aset (fst kv) (snd kv) a) ats acc).
Proof. induction ats as [|[k v] ats IH]; intros acc; simpl; [reflexivity|]. rewrite aval_roundtrip. apply IH. Qed.

Lemma convert_attrs_roundtrip up ats :
  nodup_keys ats = true -> convert_attrs (attrs_to_dval up ats) = Some ats.
Proof.
  intros ND. unfold attrs_to_dval. destruct up.
  - destruct ats as [|kv ats]; [reflexivity|].
    unfold convert_attrs. cbn [map].
    change (DList [DStr (fst kv); dval_of_aval (snd kv)] :: map (fun kv0 => DList [DStr (fst kv0); dval_of_aval (snd kv0)]) ats)
      with (map (fun kv0 => DList [DStr (fst kv0); dval_of_aval (snd kv0)]) (kv :: ats)).
    rewrite pairs_to_attrs_enc, (aset_all (kv :: ats) [] ND); [reflexivity|]. intros; reflexivity.
  - unfold convert_attrs. rewrite dict_to_attrs_enc, (aset_all ats [] ND); [reflexivity|]. intros; reflexivity.
Qed.

Lemma meta_roundtrip me : dict_to_meta (map (fun kv => (fst kv, DStr (snd kv))) me) = Some me.
Proof. induction me as [|[k v] me IH]; simpl; [reflexivity|]. rewrite IH. reflexivity. Qed.

Definition RT (t : token) : Prop :=
  forall n c u, attrs_okb t = true -> (depth t <= n)%nat -> from_dict n (as_dict c u t) = Some t.

Section Lookups.
Context (c u : bool) (t : token).
Let m := as_dict c u t.
Lemma lk_type : get_str s_type m = Some (ttype t). Proof. destruct t; reflexivity. Qed.
Lemma lk_tag : get_str s_tag m = Some (ttag t). Proof. destruct t; reflexivity. Qed.
Lemma lk_nesting : get_int s_nesting m = Some (tnesting t). Proof. destruct t; reflexivity. Qed.
Lemma lk_level : get_int s_level m = Some (tlevel t). Proof. destruct t; reflexivity. Qed.
Lemma lk_content : get_str s_content m = Some (tcontent t). Proof. destruct t; reflexivity. Qed.
Lemma lk_markup : get_str s_markup m = Some (tmarkup t). Proof. destruct t; reflexivity. Qed.
Lemma lk_info : get_str s_info m = Some (tinfo t). Proof. destruct t; reflexivity. Qed.
Lemma lk_block : get_bool s_block m = Some (tblock t). Proof. destruct t; reflexivity. Qed.
Lemma lk_hidden : get_bool s_hidden m = Some (thidden t). Proof. destruct t; reflexivity. Qed.
Lemma lk_attrs : alookup s_attrs m = Some (attrs_to_dval u (tattrs t)). Proof. destruct t; reflexivity. Qed.
Lemma lk_map : alookup s_map m = Some (match tmap t with None => DNone | Some (a, b) => DList [DInt a; DInt b] end).
Proof. destruct t; reflexivity. Qed.
Lemma lk_meta : alookup s_meta m = Some (DDict (map (fun kv => (fst kv, DStr (snd kv))) (tmeta t))).
Proof. destruct t; reflexivity. Qed.
End Lookups.

Definition children_dval (c u : bool) (ch : option (list token)) : dval :=
  match ch with
  | None => DNone
  | Some [] => DList []
  | Some l => if c then DList (map (fun x => DDict (as_dict c u x)) l) else DList (map DToken l)
  end.

Lemma lk_children c u t : alookup s_children (as_dict c u t) = Some (children_dval c u (tchildren t)).
Proof.
  destruct t as [ty tag nst ats mp lv ch co mk inf me bl hd]. cbn [tchildren children_dval].
  destruct ch as [[|x l]|]; reflexivity.
Qed.

Definition conv_children (n : nat) (d : dval) : option (option (list token)) :=
  match d with
  | DNone => Some None
  | DList l =>
      (fix go (l : list dval) : option (option (list token)) :=
         match l with
         | [] => Some (Some [])
         | d :: l' =>
             match (match d with
                    | DToken t => Some t
                    | DDict m' => from_dict n m'
                    | _ => None end), go l' with
             | Some t, Some (Some r) => Some (Some (t :: r))
             | _, _ => None
             end
         end) l
  | _ => None
  end.

Lemma from_dict_S n m :
  from_dict (S n) m =
  match get_str s_type m, get_str s_tag m, get_int s_nesting m, get_int s_level m,
        get_str s_content m, get_str s_markup m, get_str s_info m, get_bool s_block m, get_bool s_hidden m with
  | Some ty, Some tag, Some nst, Some lv, Some co, Some mk, Some inf, Some bl, Some hd =>
    match alookup s_attrs m with
    | None => None
    | Some da =>
      match convert_attrs da with
      | None => None
      | Some ats =>
        match (match alookup s_map m with
               | Some (DList [DInt a; DInt b]) => Some (Some (a, b))
               | Some DNone => Some None
               | _ => None end),
              (match alookup s_meta m with Some (DDict l) => dict_to_meta l | _ => None end),
              (match alookup s_children m with Some d => conv_children n d | None => None end) with
        | Some mp, Some me, Some ch => Some (Tok ty tag nst ats mp lv ch co mk inf me bl hd)
        | _, _, _ => None
        end
      end
    end
  | _, _, _, _, _, _, _, _, _ => None
  end.
Proof.
  cbn [from_dict]. unfold conv_children.
  destruct (get_str s_type m), (get_str s_tag m), (get_int s_nesting m), (get_int s_level m),
    (get_str s_content m), (get_str s_markup m), (get_str s_info m), (get_bool s_block m), (get_bool s_hidden m);
    reflexivity.
Qed.

Lemma conv_children_roundtrip n c u (l : list token) :
  Forall (fun x => from_dict n (as_dict c u x) = Some x) l ->
  conv_children n (children_dval c u (Some l)) = Some (Some l).
Proof.
  intros HF. destruct l as [|x l]; [reflexivity|]. unfold children_dval.
  set (L := x :: l) in *. clearbody L. clear x l.
  destruct c; unfold conv_children.
  - induction HF as [|y l Hy Hl IH]; [reflexivity|]. cbn [map]. rewrite Hy, IH. reflexivity.
  - clear HF. induction L as [|y l IH]; [reflexivity|]. cbn [map]. rewrite IH. reflexivity.
Qed.

Theorem dict_roundtrip t : RT t.
Proof.
  induction t as [ty tag nst ats mp lv ch co mk inf me bl hd IH] using token_ind'.
  intros n c u OK Hd. destruct n as [|n]; [simpl in Hd; lia|].
  cbn [attrs_okb tattrs tchildren] in OK. apply Bool.andb_true_iff in OK. destruct OK as [OKa OKc].
  cbn [depth tchildren] in Hd. apply le_S_n in Hd.
  rewrite from_dict_S.
  rewrite lk_type, lk_tag, lk_nesting, lk_level, lk_content, lk_markup, lk_info, lk_block, lk_hidden,
          lk_attrs, lk_map, lk_meta, lk_children.
  cbn [ttype ttag tnesting tattrs tmap tlevel tchildren tcontent tmarkup tinfo tmeta tblock thidden].
  rewrite (convert_attrs_roundtrip u ats OKa), meta_roundtrip.
  assert (Hmp : match Some (match mp with None => DNone | Some (a, b) => DList [DInt a; DInt b] end) with
                | Some (DList [DInt a; DInt b]) => Some (Some (a, b))
                | Some DNone => Some None
                | _ => None end = Some mp).
  { destruct mp as [[a b]|]; reflexivity. }
  rewrite Hmp.
  destruct ch as [l|]; [|reflexivity].
  rewrite conv_children_roundtrip; [reflexivity|].
  cbn [Forall_opt] in IH.
  revert OKc Hd. induction IH as [|y l0 Hy Hl IHl]; intros OKc Hd; constructor.
  - apply Bool.andb_true_iff in OKc. destruct OKc as [O1 _]. apply Hy; [exact O1 | lia].
  - apply IHl.
    + apply Bool.andb_true_iff in OKc. destruct OKc as [_ O2]. exact O2.
    + lia.
Qed.

Corollary dict_roundtrip_all t :
  attrs_okb t = true ->
  forall children upstream, from_dict (depth t) (as_dict children upstream t) = Some t.
Proof. intros H c u. apply dict_roundtrip; [exact H | lia]. Qed.
