(* C10 / C04, block half: every token the block parser appends has a (type, tag) pair from the
   fixed vocabulary of a rule that was actually dispatched -- so a token kind appears only if a
   rule producing it is in the chain, html_block tokens only when options.html is on, and every
   tag comes from the renderer's fixed vocabulary. *)
From MD Require Import Base.Py Model.Token Model.StateBlock Model.Render Model.Block Lemmas.RenderLemmas Lemmas.BlockEff.

Definition tt_only (P : token -> Prop) : Prop :=
  forall t t', ttype t' = ttype t -> ttag t' = ttag t -> tchildren t' = tchildren t -> tattrs t' = tattrs t -> P t -> P t'.

(* the attributes cannot carry a URL or a class *)
Definition no_url_attrs (t : token) : Prop :=
  (forall k v, In (k, AStr v) (tattrs t) -> k = [104; 114; 101; 102] \/ k = [115; 114; 99] -> False)
  /\ (forall n, In ([99; 108; 97; 115; 115], AInt n) (tattrs t) -> False)
  /\ Forall (fun kv => fst kv = s_start \/ fst kv = s_style) (tattrs t).
(* Some []: an inline token before the inline parser has filled it *)
Definition is (ty tag : str) (t : token) : Prop :=
  ttype t = ty /\ ttag t = tag /\ (tchildren t = None \/ tchildren t = Some []) /\ no_url_attrs t.

Definition P_hr (t : token) : Prop := is [104; 114] [104; 114] t.
Definition P_code (t : token) : Prop := is [99; 111; 100; 101; 95; 98; 108; 111; 99; 107] [99; 111; 100; 101] t.
Definition P_fence (t : token) : Prop := is [102; 101; 110; 99; 101] [99; 111; 100; 101] t.
Definition P_reference (t : token) : Prop := is [100; 101; 102; 105; 110; 105; 116; 105; 111; 110] [] t.
Definition P_paragraph (t : token) : Prop := is [112; 97; 114; 97; 103; 114; 97; 112; 104; 95; 111; 112; 101; 110] [112] t \/ is [105; 110; 108; 105; 110; 101] [] t \/ is [112; 97; 114; 97; 103; 114; 97; 112; 104; 95; 99; 108; 111; 115; 101] [112] t.
Definition P_blockquote (t : token) : Prop := is [98; 108; 111; 99; 107; 113; 117; 111; 116; 101; 95; 111; 112; 101; 110] [98; 108; 111; 99; 107; 113; 117; 111; 116; 101] t \/ is [98; 108; 111; 99; 107; 113; 117; 111; 116; 101; 95; 99; 108; 111; 115; 101] [98; 108; 111; 99; 107; 113; 117; 111; 116; 101] t.
Definition P_list (t : token) : Prop := is [111; 114; 100; 101; 114; 101; 100; 95; 108; 105; 115; 116; 95; 111; 112; 101; 110] [111; 108] t \/ is [98; 117; 108; 108; 101; 116; 95; 108; 105; 115; 116; 95; 111; 112; 101; 110] [117; 108] t \/ is [108; 105; 115; 116; 95; 105; 116; 101; 109; 95; 111; 112; 101; 110] [108; 105] t \/ is [108; 105; 115; 116; 95; 105; 116; 101; 109; 95; 99; 108; 111; 115; 101] [108; 105] t \/ is [111; 114; 100; 101; 114; 101; 100; 95; 108; 105; 115; 116; 95; 99; 108; 111; 115; 101] [111; 108] t \/ is [98; 117; 108; 108; 101; 116; 95; 108; 105; 115; 116; 95; 99; 108; 111; 115; 101] [117; 108] t.
Definition P_table (t : token) : Prop := is [116; 97; 98; 108; 101; 95; 111; 112; 101; 110] [116; 97; 98; 108; 101] t \/ is [116; 104; 101; 97; 100; 95; 111; 112; 101; 110] [116; 104; 101; 97; 100] t \/ is [116; 114; 95; 111; 112; 101; 110] [116; 114] t \/ is [116; 104; 95; 111; 112; 101; 110] [116; 104] t \/ is [105; 110; 108; 105; 110; 101] [] t \/ is [116; 104; 95; 99; 108; 111; 115; 101] [116; 104] t \/ is [116; 114; 95; 99; 108; 111; 115; 101] [116; 114] t \/ is [116; 104; 101; 97; 100; 95; 99; 108; 111; 115; 101] [116; 104; 101; 97; 100] t \/ is [116; 98; 111; 100; 121; 95; 111; 112; 101; 110] [116; 98; 111; 100; 121] t \/ is [116; 100; 95; 111; 112; 101; 110] [116; 100] t \/ is [116; 100; 95; 99; 108; 111; 115; 101] [116; 100] t \/ is [116; 98; 111; 100; 121; 95; 99; 108; 111; 115; 101] [116; 98; 111; 100; 121] t \/ is [116; 97; 98; 108; 101; 95; 99; 108; 111; 115; 101] [116; 97; 98; 108; 101] t.
Definition P_heading (t : token) : Prop :=
  is [105; 110; 108; 105; 110; 101] [] t \/ exists l, 1 <= l <= 6 /\ (is [104; 101; 97; 100; 105; 110; 103; 95; 111; 112; 101; 110] (hN l) t \/ is [104; 101; 97; 100; 105; 110; 103; 95; 99; 108; 111; 115; 101] (hN l) t).

Section Kinds.
Context (cfg : bcfg) (rf cf : str -> str).

Definition P_html (t : token) : Prop := c_html cfg = true /\ is nm_html_block [] t.

Definition P_rule (name : str) (t : token) : Prop :=
  if str_eqb name nm_table then P_table t
  else if str_eqb name nm_code then P_code t
  else if str_eqb name nm_fence then P_fence t
  else if str_eqb name nm_blockquote then P_blockquote t
  else if str_eqb name nm_hr then P_hr t
  else if str_eqb name nm_list then P_list t
  else if str_eqb name nm_reference then P_reference t
  else if str_eqb name nm_html_block then P_html t
  else if str_eqb name nm_heading then P_heading t
  else if str_eqb name nm_lheading then P_heading t
  else if str_eqb name nm_paragraph then P_paragraph t
  else False.

Definition P_all (t : token) : Prop := exists n, In n (c_rules cfg) /\ P_rule n t.

Lemma is_tt ty tag : tt_only (is ty tag).
Proof. intros t t' A B C D0 (D & E & G & N1 & N2 & N3). unfold is, no_url_attrs. rewrite A, B, C, D0. repeat split; assumption. Qed.

Lemma plain_is f ty tag nesting lvl : plain f -> is ty tag (f (set_level (set_block (new_token ty tag nesting) true) lvl)).
Proof.
  intros F. destruct (F (set_level (set_block (new_token ty tag nesting) true) lvl)) as (T & G & _ & _ & Ch & At).
  unfold is, no_url_attrs. rewrite T, G.
  split; [reflexivity|]. split; [reflexivity|]. split; [destruct Ch as [->| ->]; [left | right]; reflexivity|].
  destruct At as [-> | [(v & ->) | (a & ->)]]; cbn [tattrs set_level set_block new_token In].
  - split; [intros k v []|]. split; [intros n []|constructor].
  - split; [intros k w [E|[]] _; discriminate E|]. split; [intros n [E|[]]; discriminate E|].
    constructor; [left; reflexivity | constructor].
  - split; [intros k w [E|[]] [K|K]; injection E as <- _; discriminate K|]. split; [intros n [E|[]]; discriminate E|].
    constructor; [right; reflexivity | constructor].
Qed.

Ltac pick H := first [exact H | left; exact H | right; pick H].

Lemma leaf_rule n ty tag t : leaf_kind cfg n ty tag -> is ty tag t -> P_rule n t.
Proof.
  intros [ | | | HT | | n' [->|[[->| ->]| ->]]] H.
  - change (P_hr t). exact H.
  - change (P_code t). exact H.
  - change (P_fence t). exact H.
  - change (P_html t). split; [exact HT | exact H].
  - change (P_reference t). exact H.
  - change (P_paragraph t). pick H.
  - change (P_heading t). pick H.
  - change (P_heading t). pick H.
  - change (P_table t). pick H.
Qed.

Lemma pair_kind_rule n oty cty tag t : pair_kind n oty cty tag -> is oty tag t \/ is cty tag t -> P_rule n t.
Proof.
  intros [ | n' l [->| ->] Hl | | | | | | | | | | ] H.
  - change (P_paragraph t). destruct H as [H|H]; pick H.
  - change (P_heading t). right. exists l. split; [exact Hl | exact H].
  - change (P_heading t). right. exists l. split; [exact Hl | exact H].
  - change (P_blockquote t). exact H.
  - change (P_list t). destruct H as [H|H]; pick H.
  - change (P_list t). destruct H as [H|H]; pick H.
  - change (P_list t). destruct H as [H|H]; pick H.
  - change (P_table t). destruct H as [H|H]; pick H.
  - change (P_table t). destruct H as [H|H]; pick H.
  - change (P_table t). destruct H as [H|H]; pick H.
  - change (P_table t). destruct H as [H|H]; pick H.
  - change (P_table t). destruct H as [H|H]; pick H.
  - change (P_table t). destruct H as [H|H]; pick H.
Qed.

(* map and hidden are not looked at *)
Lemma retouch_rule n x y : retouch x y -> P_rule n x -> P_rule n y.
Proof. intros (m & h & ->) H. exact H. Qed.

Lemma eff_grow (A : str -> Prop) (C : bstate -> bstate -> Prop) (HA : forall n, A n -> In n (c_rules cfg)) (HC : forall a b, C a b -> appends P_all a b) a b :
  eff cfg rf A C a b -> appends P_all a b.
Proof.
  induction 1 as [a b Cab | a | a b c _ E1 _ E2 | a n ty tag f An Ln F | a n oty cty tag f f' b An Pn F F' _ E
                  | a b X _ E _ _ _ Tc | a X label title raw m [T _] _ _ _ | a a' b X [T _] _ _ E [T' _] _ _].
  - exact (HC a b Cab).
  - apply appends_nil. reflexivity.
  - exact (appends_trans _ a b c E1 E2).
  - apply appends_push. exists n. split; [exact (HA n An) | apply (leaf_rule n ty tag _ Ln), plain_is, F].
  - apply (appends_trans _ a (bpush a oty tag 1 f)); [|apply (appends_trans _ _ b _ E)];
      apply appends_push; (exists n; split; [exact (HA n An)|]); apply (pair_kind_rule n oty cty tag _ Pn);
      [left | right]; apply plain_is; assumption.
  - destruct E as (seg & Tb & Fs). rewrite Tb in Tc. apply touched_app in Tc. destruct Tc as (seg' & TX & Fr).
    exists seg'. split; [exact TX|]. clear Tb TX. induction Fr as [|x y l l' R _ IH]; [constructor|].
    inversion Fs as [|? ? (n & I & Px) Fl]; subst. constructor; [|apply IH, Fl].
    exists n. split; [exact I | exact (retouch_rule n x y R Px)].
  - apply appends_nil, T.
  - apply (appends_trans _ a a' X (appends_nil _ a a' T)), (appends_trans _ a' b X E), appends_nil, T'.
Qed.

(* the terminator chains are compiled from the enabled rules (Ruler: a named chain is the main chain
   filtered by the rule's alt list), so every chain is a sub-list of the main chain *)
Definition chains_sub : Prop := forall ch n, In n (c_term cfg ch) -> In n (c_rules cfg).

(* ParserBlock.parse: every appended token has the (type, tag) of a rule of the chain *)
Theorem block_parse_kinds (CS : chains_sub) src env toks st :
  block_parse cfg rf cf src env toks = Ok st ->
  exists seg, b_tokens st = toks ++ seg /\ Forall P_all seg.
Proof.
  intros H.
  exact (eff_grow (fun n => In n (c_rules cfg)) (fun _ _ => False) (fun n I => I) (fun a b F => match F with end)
                   (state_init src env toks) st (block_parse_eff cfg rf cf _ _ CS (fun n I => I) src env toks st H)).
Qed.

End Kinds.

(* C10: a token of a rule's vocabulary needs that rule in the chain *)
Theorem no_rule_no_kind cfg rf cf (CS : chains_sub cfg) src env toks st :
  block_parse cfg rf cf src env toks = Ok st ->
  forall seg, b_tokens st = toks ++ seg ->
  forall t, In t seg -> exists n, In n (c_rules cfg) /\ P_rule cfg n t.
Proof.
  intros H seg E t I. destruct (block_parse_kinds cfg rf cf CS src env toks st H) as (seg' & E' & F).
  assert (seg' = seg) by (rewrite E in E'; apply app_inv_head in E'; symmetry; exact E'). subst seg'.
  rewrite Forall_forall in F. exact (F t I).
Qed.

(* C04: the tags of block tokens come from a fixed vocabulary, and html_block tokens exist only
   when options.html is on *)
Definition block_tags : list str :=
  [[104; 114];
   [99; 111; 100; 101];
   [112];
   [98; 108; 111; 99; 107; 113; 117; 111; 116; 101];
   [111; 108];
   [117; 108];
   [108; 105];
   [116; 97; 98; 108; 101];
   [116; 104; 101; 97; 100];
   [116; 98; 111; 100; 121];
   [116; 114];
   [116; 104];
   [116; 100];
   [104; 49];
   [104; 50];
   [104; 51];
   [104; 52];
   [104; 53];
   [104; 54];
   []].

(* what the renderer asks of a block token's kind: a tag from the vocabulary or a type whose rule does not
   write the tag, never html_inline, html_block only under options.html *)
Definition kind_ok (cfg : bcfg) (ty tag : str) : bool :=
  if str_eqb ty s_html_block then c_html cfg
  else (mem_str tag (removelast block_tags) || silent_ty ty || str_eqb ty s_inline) && negb (str_eqb ty s_html_inline).

Lemma P_rule_is cfg n t : P_rule cfg n t ->
  exists ty tag, is ty tag t /\ mem_str tag block_tags = true /\ (ty = nm_html_block -> c_html cfg = true) /\ kind_ok cfg ty tag = true.
Proof.
  unfold P_rule.
  repeat match goal with |- (if ?c then _ else _) -> _ => destruct c end;
    unfold P_table, P_code, P_fence, P_blockquote, P_hr, P_list, P_reference, P_html, P_heading, P_paragraph;
    intros H.
  all: try contradiction.
  all: try (match goal with H : c_html _ = true /\ _ |- _ => destruct H as [HT H] end).
  all: repeat match goal with H : _ \/ _ |- _ => destruct H as [H|H] end.
  (* heading, lheading: the tags h1 .. h6 one by one *)
  all: try (match goal with H : exists _, _ |- _ => destruct H as (l & Hl & [H|H]) end;
            assert (HL : l = 1 \/ l = 2 \/ l = 3 \/ l = 4 \/ l = 5 \/ l = 6) by lia;
            destruct HL as [->|[->|[->|[->|[->| ->]]]]]).
  (* each goal names a closed (type, tag): the tag is looked up and the kind computed; html_block alone needs its guard *)
  all: eexists _, _; (split; [exact H|]); (split; [reflexivity|]);
       (split; [first [discriminate | intros _; exact HT] | unfold kind_ok; rewrite ?HT; reflexivity]).
Qed.

Lemma P_rule_tag cfg n t : P_rule cfg n t ->
  In (ttag t) block_tags /\ (ttype t = nm_html_block -> c_html cfg = true).
Proof.
  intros H. destruct (P_rule_is cfg n t H) as (ty & tag & (-> & -> & _) & M & HT & _).
  split; [apply mem_str_In, M | exact HT].
Qed.

Theorem block_parse_tags cfg rf cf (CS : chains_sub cfg) src env toks st :
  block_parse cfg rf cf src env toks = Ok st ->
  exists seg, b_tokens st = toks ++ seg
              /\ Forall (fun t => In (ttag t) block_tags /\ (ttype t = nm_html_block -> c_html cfg = true)) seg.
Proof.
  intros H. destruct (block_parse_kinds cfg rf cf CS src env toks st H) as (seg & E & F).
  exists seg. split; [exact E|]. eapply Forall_impl; [|exact F].
  intros t (n & _ & P). eapply P_rule_tag; exact P.
Qed.

From MD Require Import Model.Ruler.
Lemma compile_chain_sub (rs : list (@rule str)) ch f : In f (compile_chain rs ch) -> In f (compile_chain rs []).
Proof.
  unfold compile_chain. rewrite !in_map_iff. intros (r & E & I). exists r. split; [exact E|].
  apply filter_In in I. destruct I as [I C]. apply filter_In. split; [exact I|].
  apply Bool.andb_true_iff in C. destruct C as [C _]. rewrite C. reflexivity.
Qed.

Theorem ruler_cfg_chains_sub (rs : list (@rule str)) code mn html defs :
  chains_sub (mkBCfg (compile_chain rs []) (compile_chain rs) code mn html defs).
Proof. intros ch n H. cbn [c_term c_rules] in *. eapply compile_chain_sub; exact H. Qed.
