(* C08: what getLines returns is, line for line, a suffix of the source line - only blanks (or
   characters of the container prefix, i.e. within tShift) are removed from the front, and a
   partially consumed tab is replaced by at most three spaces.  For EVERY state (any table
   contents, any nesting), every line range and every non-negative indent.  The code, fence and
   html_block rules set their token's content to exactly such a getLines result over the lines
   of the token's map; the fence's markup and info string are slices of its opening line.
   Two more verbatim facts follow: the text of a code span is the source between the backtick runs,
   padded as code_span_text says, and the markup of an ATX heading is its run of '#'. *)
From MD Require Import Base.Py Base.Str Model.Token Model.Utils Model.StateBlock Model.Render Model.Block
     Model.Inline Lemmas.StrLemmas Lemmas.QuoteLemmas Lemmas.InlineLemmas Lemmas.BlockEff.
From Coq Require Import ZifyBool.

(* position p of the source may be dropped from the front of a line that starts at b and whose
   container prefix is ts characters long *)
Definition removable (src : str) (b ts p : Z) : Prop :=
  exists c, py_idx src p = Ok c /\ (is_space c = true \/ p - b < ts).

Lemma gl_scan_stop fuel src first last b li indent ts bs : indent <= li ->
  gl_scan fuel src first last b li indent ts bs = Ok (first, li).
Proof. intros H. destruct fuel; cbn [gl_scan]; [reflexivity|]. replace ((first <? last) && (li <? indent)) with false by lia. reflexivity. Qed.

Lemma gl_scan_spec : forall fuel src first last b li indent ts bs f' li',
  gl_scan fuel src first last b li indent ts bs = Ok (f', li') ->
  li <= indent ->
  first <= f' /\ (f' <= last \/ f' = first)
  /\ (forall p, first <= p < f' -> removable src b ts p)
  /\ (li' <= indent \/ (0 < li' - indent <= 3 /\ first < f' /\ py_idx src (f' - 1) = Ok 9)).
Proof.
  induction fuel as [|f IH]; intros src first last b li indent ts bs f' li' H L; cbn [gl_scan] in H.
  - rfinish H. repeat split; try lia.
  - destruct ((first <? last) && (li <? indent)) eqn:E; [|rfinish H; repeat split; lia].
    assert (E1 : first < last) by lia. assert (E2 : li < indent) by lia.
    apply bind_ok in H as (ch & Ec & H).
    (* the character at [first] is dropped and the scan goes on, still not past the indent *)
    match goal with |- ?G => assert (STEP : forall li1, is_space ch = true \/ first - b < ts -> li1 <= indent ->
                                            gl_scan f src (first + 1) last b li1 indent ts bs = Ok (f', li') -> G) end.
    { intros li1 R L1 H1. apply IH in H1; [|exact L1]. destruct H1 as (A & B & C & D). repeat split; try lia.
      - intros p Hp. destruct (Z.eq_dec p first) as [->|N]; [exists ch; split; [exact Ec | exact R] | apply C; lia].
      - destruct D as [D|(D1 & D2 & D3)]; [left; exact D | right; repeat split; try lia; exact D3]. }
    destruct (is_space ch) eqn:Es.
    2: { destruct (first - b <? ts) eqn:Et; [apply (STEP (li + 1)); [right; lia | lia | exact H] | rfinish H; repeat split; lia]. }
    destruct (ch =? 9) eqn:E9; [|apply (STEP (li + 1)); [left; reflexivity | lia | exact H]].
    assert (ch = 9) by lia. subst ch.
    assert (M : 0 <= (li + bs) mod 4 < 4) by (apply Z.mod_pos_bound; lia).
    remember (4 - (li + bs) mod 4) as w eqn:Ew. assert (Mw : 1 <= w <= 4) by lia. clear Ew M.
    destruct (li + w <=? indent) eqn:E3; [apply (STEP (li + w)); [left; reflexivity | lia | exact H]|].
    (* a tab that goes past the indent: the scan stops right after it *)
    rewrite gl_scan_stop in H by lia. rfinish H. repeat split; try lia.
    + intros p Hp. assert (p = first) by lia. subst p. exists 9. split; [exact Ec | left; exact Es].
    + right. repeat split; try lia. replace (first + 1 - 1) with first by lia. exact Ec.
Qed.

Definition line_piece (st : bstate) (line last : Z) (piece : str) : Prop :=
  exists b ts first k,
    tb (b_bMarks st) line = Ok b /\ tb (b_tShift st) line = Ok ts
    /\ b <= first /\ (first <= last \/ first = b) /\ 0 <= k <= 3
    /\ piece = rep 32 k ++ slice (b_src st) first last
    /\ (forall p, b <= p < first -> removable (b_src st) b ts p)
    /\ (0 < k -> b < first /\ py_idx (b_src st) (first - 1) = Ok 9).

(* the pieces for lines [line, endl): every line but the last keeps its line feed; the last one
   keeps it when keepLastLF *)
Inductive pieces (st : bstate) (endl : Z) (keep : bool) : Z -> str -> Prop :=
| pieces_nil line : endl <= line -> pieces st endl keep line []
| pieces_cons line e piece rest :
    line < endl -> tb (b_eMarks st) line = Ok e ->
    line_piece st line (if (line + 1 <? endl) || keep then e + 1 else e) piece ->
    pieces st endl keep (line + 1) rest ->
    pieces st endl keep line (piece ++ rest).

Lemma rep_nonpos (c : Z) n : n <= 0 -> rep c n = [].
Proof. intros H. unfold rep. replace (Z.to_nat n) with 0%nat by lia. reflexivity. Qed.

Lemma get_lines_loop_spec : forall fuel st line endl indent keep content,
  get_lines_loop fuel st line endl indent keep = Ok content -> 0 <= indent ->
  (Z.to_nat (endl - line) < fuel)%nat ->
  pieces st endl keep line content.
Proof.
  induction fuel as [|f IH]; intros st line endl indent keep content H Hi Hf; [lia|].
  cbn [get_lines_loop] in H.
  destruct (negb (line <? endl)) eqn:E; [rfinish H; apply pieces_nil; lia|].
  apply bind_ok in H as (b & Eb & H).
  apply bind_ok in H as (e & Ee & H).
  apply bind_ok in H as (ts & Et & H).
  apply bind_ok in H as (bs & Ebs & H).
  apply bind_ok in H as ([first li] & GS & H).
  apply bind_ok in H as (rest & GR & H).
  rfinish H.
  apply gl_scan_spec in GS; [|lia]. destruct GS as (A & B & C & D).
  apply IH in GR; [|exact Hi|lia].
  eapply pieces_cons; [lia | exact Ee | | exact GR].
  exists b, ts, first, (if indent <? li then li - indent else 0).
  repeat split; try assumption; try lia.
  - destruct (indent <? li) eqn:X; lia.
  - destruct (indent <? li) eqn:X; lia.
  - destruct (indent <? li) eqn:X; [reflexivity|]. rewrite rep_nonpos by lia. reflexivity.
  - destruct (indent <? li) eqn:X; lia.
  - destruct (indent <? li) eqn:X; [|lia]. destruct D as [D|(D1 & D2 & D3)]; [lia | exact D3].
Qed.

Theorem get_lines_verbatim st a b indent keep content :
  get_lines st a b indent keep = Ok content -> 0 <= indent -> pieces st b keep a content.
Proof.
  unfold get_lines. intros H Hi.
  destruct (b <=? a) eqn:E; [rfinish H; apply pieces_nil; lia|].
  apply get_lines_loop_spec in H; [exact H | exact Hi | lia].
Qed.

Lemma gl_scan_zero fuel src first last b li ts bs : 0 <= li ->
  gl_scan fuel src first last b li 0 ts bs = Ok (first, li).
Proof. apply gl_scan_stop. Qed.

Lemma get_lines_ext st st' : b_src st' = b_src st -> b_bMarks st' = b_bMarks st -> b_eMarks st' = b_eMarks st ->
  b_tShift st' = b_tShift st -> b_bsCount st' = b_bsCount st ->
  forall a b indent keep, get_lines st' a b indent keep = get_lines st a b indent keep.
Proof.
  intros E1 E2 E3 E4 E5 a b indent keep. unfold get_lines. destruct (b <=? a); [reflexivity|].
  generalize (S (Z.to_nat (b - a))) as f. intros f. revert a.
  induction f as [|f IH]; intros a; cbn [get_lines_loop]; [reflexivity|]. rewrite E1, E2, E3, E4, E5, IH. reflexivity.
Qed.
Lemma get_lines_line st l a b indent keep : get_lines (st_line st l) a b indent keep = get_lines st a b indent keep.
Proof. apply get_lines_ext; reflexivity. Qed.

Section Rules.
Context (cfg : bcfg).

Definition last_tok (st st' : bstate) (t : token) : Prop := b_tokens st' = b_tokens st ++ [t].

Theorem r_code_content st sl el st' :
  r_code cfg st sl el false = Ok (true, st') ->
  exists t content, last_tok st st' t /\ tmap t = Some (sl, b_line st')
    /\ tcontent t = content ++ [10]
    /\ get_lines st sl (b_line st') (4 + b_blkIndent st) false = Ok content.
Proof.
  unfold r_code. intros H.
  rstep H. rstep H; [discriminate H|].
  rstep H.
  apply bind_ok in H as (content & GL & H).
  rewrite get_lines_line in GL. rfinish H. eexists. exists content. unfold last_tok.
  split; [rewrite bpush_tokens; reflexivity|]. split; [reflexivity|]. split; [reflexivity|]. exact GL.
Qed.

Theorem r_fence_content st sl el st' :
  r_fence cfg st sl el false = Ok (true, st') ->
  exists t nl ind pos e marker, last_tok st st' t /\ tmap t = Some (sl, b_line st')
    /\ (b_line st' = nl \/ b_line st' = nl + 1)
    /\ tb (b_sCount st) sl = Ok ind
    /\ get_lines st (sl + 1) nl ind true = Ok (tcontent t)
    /\ line_start st sl = Ok pos /\ tb (b_eMarks st) sl = Ok e
    /\ (marker = 126 \/ marker = 96)
    /\ let p2 := skip_chars (b_src st) pos marker in
       pos + 3 <= p2 /\ tmarkup t = slice (b_src st) pos p2 /\ tinfo t = slice (b_src st) p2 e.
Proof.
  unfold r_fence. intros H.
  apply bind_ok in H as (pos & LS & H).
  apply bind_ok in H as (e & Ee & H).
  rstep H. rstep H; [discriminate H|]. rstep H; [discriminate H|].
  apply bind_ok in H as (marker & Em & H).
  destruct (negb ((marker =? 126) || (marker =? 96))) eqn:Mk; [discriminate H|].
  destruct (skip_chars (b_src st) pos marker - pos <? 3) eqn:E3; [discriminate H|].
  rstep H; [discriminate H|].
  apply bind_ok in H as ([nl have] & FS & H).
  apply bind_ok in H as (ind & Ei & H).
  apply bind_ok in H as (content & GL & H).
  rewrite get_lines_line in GL. rfinish H.
  eexists. exists nl, ind, pos, e, marker.
  unfold last_tok.
  split; [rewrite bpush_tokens; reflexivity|]. split; [reflexivity|].
  split; [cbn; destruct have; lia|]. split; [exact Ei|]. split; [exact GL|].
  split; [exact LS|]. split; [exact Ee|]. split; [lia|]. cbv zeta.
  split; [lia|]. split; reflexivity.
Qed.

Theorem r_html_block_content st sl el st' :
  r_html_block cfg st sl el false = Ok (true, st') ->
  exists t, last_tok st st' t /\ tmap t = Some (sl, b_line st')
    /\ get_lines st sl (b_line st') (b_blkIndent st) true = Ok (tcontent t).
Proof.
  unfold r_html_block. intros H.
  do 3 rstep H. rstep H; [discriminate H|]. rstep H; [discriminate H|]. rstep H; [discriminate H|].
  rstep H. rstep H; [discriminate H|].
  rstep H; [|discriminate H]. destruct p as [[opener closer] can].
  apply bind_ok in H as (nl & NL & H).
  apply bind_ok in H as (content & GL & H).
  rewrite get_lines_line in GL. rfinish H. eexists. unfold last_tok.
  split; [rewrite bpush_tokens; reflexivity|]. split; [reflexivity|]. exact GL.
Qed.

End Rules.

Lemma skip_while_all : forall fuel p src pos, 0 <= pos ->
  pos <= skip_while fuel p src pos /\ (skip_while fuel p src pos <= len src \/ skip_while fuel p src pos = pos)
  /\ Forall (fun c => p c = true) (slice src pos (skip_while fuel p src pos)).
Proof.
  induction fuel as [|f IH]; intros p src pos Hp; cbn [skip_while].
  - split; [lia|]. split; [right; reflexivity|]. rewrite slice_empty by lia. constructor.
  - destruct (char_at src pos) as [c|] eqn:Ec; [|split; [lia|]; split; [right; reflexivity|]; rewrite slice_empty by lia; constructor].
    destruct ((0 <=? pos) && p c) eqn:E; [|split; [lia|]; split; [right; reflexivity|]; rewrite slice_empty by lia; constructor].
    destruct (IH p src (pos + 1) ltac:(lia)) as (A & B & C).
    assert (Ei : py_idx src pos = Ok c).
    { unfold char_at in Ec. unfold py_idx. cbv zeta in *. rewrite Ec. reflexivity. }
    destruct (py_idx_get src pos c Hp Ei) as [_ L].
    split; [lia|]. split; [left; lia|].
    destruct (Z.eq_dec (skip_while f p src (pos + 1)) (pos + 1)) as [Eq|Ne].
    + rewrite Eq. rewrite (slice_cons src pos (pos + 1) c) by (try lia; exact Ei).
      rewrite slice_empty by lia. constructor; [lia | constructor].
    + rewrite (slice_cons src pos _ c) by (try lia; exact Ei). constructor; [lia | exact C].
Qed.

Theorem skip_chars_run src pos m : 0 <= pos ->
  Forall (fun c => c = m) (slice src pos (skip_chars src pos m)).
Proof.
  intros Hp. unfold skip_chars. destruct (skip_while_all (S (length src)) (Z.eqb m) src pos Hp) as (_ & _ & F).
  eapply Forall_impl; [|exact F]. cbv beta. intros c Hc. lia.
Qed.

Lemma run_len_spec : forall fuel src pos maximum m r,
  run_len fuel src pos maximum m = Ok r -> 0 <= pos ->
  pos <= r /\ (r <= maximum \/ r = pos) /\ (forall q, pos <= q < r -> py_idx src q = Ok m).
Proof.
  induction fuel as [|f IH]; intros src pos maximum m r H Hp; cbn [run_len] in H.
  - rfinish H. repeat split; intros; lia.
  - destruct (pos <? maximum) eqn:E; [|rfinish H; repeat split; intros; lia].
    apply bind_ok in H as (c & Ec & H).
    destruct (c =? m) eqn:Em; [|rfinish H; repeat split; intros; lia].
    apply IH in H; [|lia]. destruct H as (A & B & C). repeat split; try lia.
    intros q Hq. destruct (Z.eq_dec q pos) as [->|N]; [rewrite Ec; f_equal; lia | apply C; lia].
Qed.

Lemma find_aux_spec c : forall s i r, find_from_aux [c] s i = r -> r <> -1 -> 0 <= i ->
  i <= r /\ nth_error s (Z.to_nat (r - i)) = Some c.
Proof.
  induction s as [|x s IH]; intros i r H Hr Hi; cbn [find_from_aux] in H; [lia|].
  cbn [starts_with] in H. destruct (c =? x) eqn:E; cbn [andb] in H.
  - subst r. replace (i - i) with 0 by lia. cbn. split; [lia | f_equal; lia].
  - destruct (IH (i + 1) r H Hr ltac:(lia)) as [A B]. split; [lia|].
    replace (Z.to_nat (r - i)) with (S (Z.to_nat (r - (i + 1)))) by lia. exact B.
Qed.

Lemma find_from_spec c s start r : find_from [c] s start = r -> r <> -1 -> 0 <= start ->
  Z.min start (len s) <= r /\ py_idx s r = Ok c.
Proof.
  unfold find_from. intros H Hr Hs. cbv zeta in H.
  assert (Ec : clamp (len s) start = Z.min start (len s)).
  { unfold clamp. assert (X : (start <? 0) = false) by lia. rewrite X. reflexivity. }
  rewrite Ec in H. pose proof (len_nonneg s) as Ln.
  destruct (find_aux_spec c _ _ _ H Hr ltac:(lia)) as [A B]. split; [exact A|].
  rewrite nth_skipn in B.
  apply py_idx_nth; [lia|]. replace (Z.to_nat r) with (Z.to_nat (Z.min start (len s)) + Z.to_nat (r - Z.min start (len s)))%nat by lia.
  exact B.
Qed.

Lemma bt_scan_spec : forall fuel st matchEnd maximum ol bts ms me bts',
  bt_scan fuel st matchEnd maximum ol bts = Ok (Some (ms, me), bts') -> 0 <= matchEnd -> matchEnd <= len (i_src st) ->
  matchEnd <= ms /\ py_idx (i_src st) ms = Ok 96 /\ ms + 1 <= me /\ me - ms = ol
  /\ (forall q, ms <= q < me -> py_idx (i_src st) q = Ok 96).
Proof.
  induction fuel as [|f IH]; intros st matchEnd maximum ol bts ms me bts' H H0 Hl; cbn [bt_scan] in H; [discriminate H|].
  cbv zeta in H.
  destruct (find_from [96] (i_src st) matchEnd =? -1) eqn:E; [discriminate H|].
  destruct (find_from_spec 96 (i_src st) matchEnd _ eq_refl ltac:(lia) H0) as [A B].
  set (m0 := find_from [96] (i_src st) matchEnd) in *. pose proof (len_nonneg (i_src st)) as Ln.
  apply bind_ok in H as (me0 & RL & H).
  destruct (run_len_spec _ _ _ _ _ _ RL ltac:(lia)) as (R1 & R2 & R3).
  destruct (me0 - m0 =? ol) eqn:Eo.
  - injection H as <- <- <-. repeat split; try lia; try exact B.
    intros q Hq. destruct (Z.eq_dec q m0) as [->|N]; [exact B | apply R3; lia].
  - assert (me0 <= len (i_src st)).
    { destruct (Z.eq_dec me0 (m0 + 1)) as [->|N].
      - destruct (py_idx_get (i_src st) m0 96 ltac:(lia) B) as [_ L]. lia.
      - destruct (py_idx_get _ (me0 - 1) 96 ltac:(lia) (R3 (me0 - 1) ltac:(lia))) as [_ L]. lia. }
    apply IH in H; [|lia|lia]. destruct H as (P1 & P2 & P3 & P4 & P5). repeat split; try lia; assumption.
Qed.

Lemma len_slice {A} (s : list A) a b : 0 <= a -> a <= b -> b <= len s -> len (slice s a b) = b - a.
Proof.
  intros Ha Hb Hl. rewrite slice_nonneg by lia. rewrite !Z.min_l by lia.
  destruct (b <=? a) eqn:E; [assert (a = b) by lia; subst; cbn; lia|].
  unfold len. rewrite firstn_length, skipn_length. unfold len in Hl. lia.
Qed.

Lemma ipush0_last st ty tag f st' : ipush st ty tag 0 f = Ok st' ->
  exists pre lvl, i_tokens st' = pre ++ [f (set_level (new_token ty tag 0) lvl)].
Proof. rewrite ipush_leaf_eq. intros H. rfinish H. eexists. eexists. reflexivity. Qed.

(* what rules_inline/backticks.py makes of the text between the two backtick strings *)
Definition code_span_text (raw0 : str) : str :=
  let raw := replace_char 10 [32] raw0 in
  if starts_with [32] raw && ends_with [32] raw && negb (len (strip_by (Z.eqb 32) raw) =? 0)
  then slice raw 1 (len raw - 1) else raw.

(* whenever the backtick rule pushes a token: the markup is the opening backtick string
   src[pos0:pos] (all backticks), the closing string src[ms:me] is all backticks, of the same
   length, at or after pos; the content is the text between the two, line feeds as spaces, one
   padding space stripped from each side under the CommonMark condition; the cursor ends at me *)
Theorem r_backticks_content st st' :
  r_backticks st false = Ok (true, st') -> 0 <= i_pos st -> i_pos st < len (i_src st) ->
  (i_tokens st' = i_tokens st)
  \/ exists pre t pos ms me,
       i_tokens st' = pre ++ [t] /\ ttype t = s_code_inline
       /\ i_pos st < pos /\ pos <= ms /\ ms < me /\ i_pos st' = me
       /\ me - ms = pos - i_pos st
       /\ (forall q, i_pos st <= q < pos -> py_idx (i_src st) q = Ok 96)
       /\ (forall q, ms <= q < me -> py_idx (i_src st) q = Ok 96)
       /\ tmarkup t = slice (i_src st) (i_pos st) pos
       /\ tcontent t = code_span_text (slice (i_src st) pos ms).
Proof.
  unfold r_backticks. intros H Hp Hl. cbv zeta in H.
  apply bind_ok in H as (c & Ec & H).
  destruct (negb (c =? 96)) eqn:E96; [discriminate H|]. assert (c = 96) by lia. subst c.
  apply bind_ok in H as (pos & RL & H).
  destruct (run_len_spec _ _ _ _ _ _ RL ltac:(lia)) as (R1 & R2 & R3).
  match type of H with (if ?c then _ else _) = _ => destruct c end; [rfinish H; left; reflexivity|].
  apply bind_ok in H as ([found bts] & BS & H).
  destruct found as [[ms me]|]; [|rfinish H; left; reflexivity].
  assert (Hpos : pos <= len (i_src st)).
  { destruct (Z.eq_dec pos (i_pos st + 1)) as [->|N]; [lia|].
    destruct (py_idx_get _ (pos - 1) 96 ltac:(lia) (R3 (pos - 1) ltac:(lia))) as [_ L]. lia. }
  apply bt_scan_spec in BS; [|lia|exact Hpos]. destruct BS as (B1 & B2 & B3 & B4 & B5).
  apply bind_ok in H as (s1 & IP & H).
  rfinish H. apply ipush0_last in IP. destruct IP as (pre & lvl & IP).
  right. exists pre. eexists. exists pos, ms, me.
  split; [exact IP|]. split; [reflexivity|]. split; [lia|]. split; [lia|]. split; [lia|]. split; [reflexivity|].
  split.
  { rewrite B4. rewrite len_slice by lia. reflexivity. }
  split.
  { intros q Hq. destruct (Z.eq_dec q (i_pos st)) as [->|N]; [exact Ec | apply R3; lia]. }
  split; [exact B5|]. split; reflexivity.
Qed.

Section Heading.
Context (cfg : bcfg).

(* heading_open / heading_close carry markup '#' * level where the line has exactly that run of
   '#' at its start (level <= 6 and the run is followed by a blank or the end of the line);
   the inline content is a stripped slice of the rest of the line *)
Theorem r_heading_markup st sl el st' pos :
  r_heading cfg st sl el false = Ok (true, st') -> line_start st sl = Ok pos -> 0 <= pos ->
  exists o i c e level m2,
    b_tokens st' = b_tokens st ++ [o; i; c]
    /\ tb (b_eMarks st) sl = Ok e
    /\ 1 <= level <= 6 /\ tmarkup o = rep 35 level /\ tmarkup c = rep 35 level
    /\ (forall q, pos <= q < pos + level -> char_at (b_src st) q = Some 35)
    /\ (pos + level < e -> is_space_at (b_src st) (pos + level) = true)
    /\ tmap o = Some (sl, sl + 1) /\ tmap i = Some (sl, sl + 1)
    /\ tcontent i = strip_by is_space (slice (b_src st) (pos + level) m2).
Proof.
  unfold r_heading. intros H LS Hp. rewrite LS in H. cbn [bind] in H.
  apply bind_ok in H as (e & Ee & H).
  rstep H. rstep H; [discriminate H|]. rstep H; [discriminate H|].
  apply bind_ok in H as (ch & Ec & H).
  destruct (negb (ch =? 35)) eqn:E35; [discriminate H|]. assert (ch = 35) by lia. subst ch.
  destruct (heading_level 8 (b_src st) (pos + 1) e 1) as [p level] eqn:HL.
  destruct ((6 <? level) || ((p <? e) && negb (is_space_at (b_src st) p))) eqn:EG; [discriminate H|].
  apply heading_level_spec in HL. destruct HL as (A & B & C).
  assert (P : p = pos + level) by lia. subst p.
  do 3 rstep H. rfinish H.
  do 3 eexists. exists e, level. eexists.
  split; [rewrite !bpush_tokens, <- !app_assoc; cbn [app]; reflexivity|].
  split; [exact Ee|]. split; [lia|]. split; [reflexivity|]. split; [reflexivity|].
  split.
  { intros q Hq. destruct (Z.eq_dec q pos) as [->|N].
    - unfold char_at. unfold py_idx in Ec. cbv zeta in *.
      destruct (get (b_src st) (if pos <? 0 then pos + len (b_src st) else pos)); [congruence | discriminate Ec].
    - apply C. lia. }
  split.
  { intros Hlt. destruct (is_space_at (b_src st) (pos + level)); [reflexivity|]. lia. }
  split; [reflexivity|]. split; reflexivity.
Qed.
End Heading.
