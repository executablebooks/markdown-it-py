(* C03, leaf blocks: on success every leaf rule advances the line cursor past its start line, not
   beyond the end line it was given (the paragraph: not beyond lineMax), and every token it appends
   carries a map inside [startLine, new line].  For every state (any table contents). *)
From RecordUpdate Require Import RecordUpdate.
From MD Require Import Base.Py Base.Str Base.Regex Model.Token Model.StateBlock Model.Block Lemmas.BlockLemmas
     Lemmas.BlockEff.
From Coq Require Import ZifyBool.

Definition map_in (a b : Z) (t : token) : Prop :=
  match tmap t with Some (x, y) => a <= x /\ x < y /\ y <= b | None => True end.

Definition leaf_maps (st : bstate) (sl : Z) (st' : bstate) : Prop :=
  sl < b_line st' /\ exists seg, b_tokens st' = b_tokens st ++ seg /\ seg <> [] /\ Forall (map_in sl (b_line st')) seg.

(* the level is left free because a push of an opening or closing token moves it *)
Definition leaf_frame (st st' : bstate) : Prop :=
  exists lvl toks l, st' = st <| b_level := lvl |> <| b_tokens := toks |> <| b_line := l |>.
Lemma leaf_frame_line st l : leaf_frame st (st_line st l).
Proof. exists (b_level st), (b_tokens st), l. destruct st; reflexivity. Qed.
Lemma leaf_frame_push st s ty tag n f : leaf_frame st s -> leaf_frame st (bpush s ty tag n f).
Proof. intros (a & b & c & ->). eexists _, _, _. reflexivity. Qed.
Definition leaf_c (st : bstate) (sl el : Z) (silent b : bool) (st' : bstate) : Prop :=
  if b && negb silent then leaf_frame st st' /\ leaf_maps st sl st' /\ (sl < el -> b_line st' <= el) else st' = st.

Lemma leaf_c_maps st sl el st' : leaf_c st sl el false true st' -> sl < el -> leaf_maps st sl st' /\ b_line st' <= el.
Proof. intros (_ & M & B) L. exact (conj M (B L)). Qed.

Lemma leaf_push1 st sl el nl ty tag n f :
  sl < nl -> (sl < el -> nl <= el) -> (forall t, map_in sl nl (f t)) -> leaf_c st sl el false true (bpush (st_line st nl) ty tag n f).
Proof.
  intros L B M. split; [apply leaf_frame_push, leaf_frame_line|]. split; [|exact B]. split; [exact L|].
  eexists. split; [rewrite bpush_tokens; reflexivity|]. split; [discriminate|]. constructor; [apply M | constructor].
Qed.

Section Maps.
Context (cfg : bcfg).

Lemma code_scan_bounds : forall fuel st nl el last r,
  code_scan cfg fuel st nl el last = Ok r -> last <= nl -> last <= r /\ (nl <= el -> r <= el).
Proof.
  induction fuel as [|f IH]; intros st nl el last r H L; cbn [code_scan] in H; [rfinish H; lia|].
  destruct (negb (nl <? el)) eqn:E; [rfinish H; lia|].
  rstep H. destruct x.
  - apply IH in H; lia.
  - rstep H. destruct x; [apply IH in H; lia | rfinish H; lia].
Qed.

(* code.py has no silent test: r_code does not look at [silent], so this instance serves either mode by conversion *)
Lemma r_code_leaf st sl el b st' : r_code cfg st sl el false = Ok (b, st') -> leaf_c st sl el false b st'.
Proof.
  unfold r_code. intros H.
  rstep H. rstep H; [rfinish H; exact eq_refl|].
  rbind H as last eqn:CS.
  apply code_scan_bounds in CS; [|lia]. destruct CS as [C1 C2].
  rstep H. rfinish H. apply leaf_push1; [lia | intros L; apply C2; lia | intros t; unfold map_in; cbn; lia].
Qed.

Lemma fence_scan_bounds : forall fuel st nl el marker len0 r have,
  fence_scan cfg fuel st nl el marker len0 = Ok (r, have) ->
  nl <= r /\ (fuel <> O -> nl + 1 <= r) /\ (nl < el -> r <= el) /\ (have = true -> r < el).
Proof.
  induction fuel as [|f IH]; intros st nl el marker len0 r have H; cbn [fence_scan] in H;
    [rfinish H; repeat split; try lia; try discriminate; intros X; contradiction X; reflexivity|].
  destruct (el <=? nl + 1) eqn:E; [rfinish H; repeat split; try lia; discriminate|].
  do 3 rstep H. rstep H; [rfinish H; repeat split; try lia; discriminate|].
  rstep H; [|rfinish H; repeat split; try lia; discriminate].
  rstep H; [apply IH in H; lia|].
  rstep H. rstep H; [apply IH in H; lia|].
  rstep H; [apply IH in H; lia|].
  rstep H; [apply IH in H; lia|].
  rfinish H. repeat split; lia.
Qed.

Lemma r_fence_leaf st sl el silent b st' : r_fence cfg st sl el silent = Ok (b, st') -> leaf_c st sl el silent b st'.
Proof.
  unfold r_fence. intros H.
  do 3 rstep H. rstep H; [rfinish H; exact eq_refl|]. rstep H; [rfinish H; exact eq_refl|].
  rstep H. rstep H; [rfinish H; exact eq_refl|]. rstep H; [rfinish H; exact eq_refl|]. rstep H; [rfinish H; exact eq_refl|].
  rstep H; [rfinish H; exact eq_refl|].
  rbind H as [nl have] eqn:FS.
  apply fence_scan_bounds in FS. destruct FS as (_ & F1 & F2 & F3). specialize (F1 ltac:(discriminate)).
  do 2 rstep H. rfinish H.
  apply leaf_push1; [destruct have; lia | intros L; specialize (F2 L); destruct have; [specialize (F3 eq_refl)|]; lia|].
  intros t. unfold map_in. cbn. destruct have; lia.
Qed.

Lemma dummy_fence : True. Proof. exact I. Qed.

Lemma r_hr_leaf st sl el silent b st' : r_hr cfg st sl el silent = Ok (b, st') -> leaf_c st sl el silent b st'.
Proof.
  unfold r_hr. intros H. repeat rstep H; try discriminate H. all: rfinish H; try exact eq_refl.
  apply leaf_push1; [lia | lia | intros t; unfold map_in; cbn; lia].
Qed.

Lemma r_heading_leaf st sl el silent b st' : r_heading cfg st sl el silent = Ok (b, st') -> leaf_c st sl el silent b st'.
Proof.
  unfold r_heading. intros H.
  do 3 rstep H. rstep H; [rfinish H; exact eq_refl|]. rstep H; [rfinish H; exact eq_refl|].
  rstep H. rstep H; [rfinish H; exact eq_refl|].
  rstep H. rstep H; [rfinish H; exact eq_refl|]. rstep H; [rfinish H; exact eq_refl|].
  do 2 rstep H.
  match type of H with bind ?m _ = _ => destruct m as [m2|?|] end; cbn [bind] in H; try discriminate H.
  rfinish H. split; [do 3 apply leaf_frame_push; apply leaf_frame_line|]. split; [|cbn; lia]. split; [cbn; lia|].
  eexists. split; [rewrite !bpush_tokens, <- !app_assoc; cbn [app]; reflexivity|]. split; [discriminate|].
  repeat constructor; unfold map_in; cbn; lia.
Qed.

Lemma html_scan_bounds : forall fuel st closer nl el r,
  html_scan fuel st closer nl el = Ok r -> nl <= r /\ (nl <= el -> r <= el).
Proof.
  induction fuel as [|f IH]; intros st closer nl el r H; cbn [html_scan] in H; [rfinish H; lia|].
  destruct (negb (nl <? el)) eqn:E; [rfinish H; lia|].
  rstep H. rstep H; [rfinish H; lia|].
  do 2 rstep H. rstep H.
  - rfinish H. destruct (negb (len (slice (b_src st) x0 x1) =? 0)); lia.
  - apply IH in H. lia.
Qed.

Lemma r_html_block_leaf st sl el silent b st' : r_html_block cfg st sl el silent = Ok (b, st') -> leaf_c st sl el silent b st'.
Proof.
  unfold r_html_block. intros H.
  do 3 rstep H. rstep H; [rfinish H; exact eq_refl|]. rstep H; [rfinish H; exact eq_refl|]. rstep H; [rfinish H; exact eq_refl|].
  rstep H. rstep H; [rfinish H; exact eq_refl|].
  rstep H; [|rfinish H; exact eq_refl]. destruct p as [[opener closer] can].
  rstep H; [rfinish H; unfold leaf_c; rewrite Bool.andb_false_r; reflexivity|].
  rbind H as nl eqn:NL.
  assert (B : sl + 1 <= nl /\ (sl < el -> nl <= el)).
  { destruct (test closer (slice (b_src st) x x0)); [rfinish NL; lia|]. apply html_scan_bounds in NL. lia. }
  rstep H. rfinish H. apply leaf_push1; [lia | apply B | intros t; unfold map_in; cbn; lia].
Qed.

Lemma para_scan_bounds term fuel chain st nl el cu r u st' :
  para_scan fuel term chain st nl el cu = Ok (r, u, st') -> nl <= r /\ (nl <= el -> r <= el) /\ (u <> None -> r < el).
Proof.
  intros H. apply para_scan_scanned in H. remember (r, u, st') as res eqn:E. revert r u st' E.
  induction H as [| | | |st nl st1 res ? ? _ _ IH]; intros r u st' E; try (injection E as <- <- <-).
  1, 2, 4: repeat split; try lia; intros X; contradiction X; reflexivity.
  - repeat split; lia.
  - destruct (IH _ _ _ E) as (A & B & C). repeat split; [lia | lia | exact C].
Qed.

(* a terminator callback that leaves the token list alone (true of every chain of silent built-in rules) *)
Definition term_same (term : term_t) : Prop := forall ch s a b r s', term ch s a b = Ok (r, s') -> b_tokens s' = b_tokens s.

Lemma para_scan_tokens term (T : term_same term) fuel chain st nl el cu r u st' :
  para_scan fuel term chain st nl el cu = Ok (r, u, st') -> b_tokens st' = b_tokens st.
Proof.
  apply (para_scan_rel (fun s s' => b_tokens s' = b_tokens s)); [reflexivity | intros a b c E1 E2; congruence | apply T].
Qed.

Lemma para_push_maps st s sl nl l ty tag f content ty' tag' f' old :
  b_tokens s = b_tokens st -> sl < nl -> nl <= l -> (forall t, tmap (f t) = Some (sl, l)) -> (forall t, tmap (f' t) = tmap t) ->
  leaf_maps st sl (st_parent (bpush (push_inline (bpush (st_line s l) ty tag 1 f) content sl nl) ty' tag' (-1) f') old).
Proof.
  intros E L1 L2 F F'. split; [cbn; lia|].
  eexists. split; [unfold push_inline; cbn [b_tokens st_parent set]; rewrite !bpush_tokens, <- !app_assoc; cbn [app b_tokens st_line set]; rewrite E; reflexivity|].
  split; [discriminate|]. repeat constructor; unfold map_in; rewrite ?F, ?F'; cbn; lia.
Qed.

Theorem r_paragraph_maps term (T : term_same term) st sl el st' :
  r_paragraph term st sl el false = Ok (true, st') -> sl < b_lineMax st -> leaf_maps st sl st' /\ b_line st' <= b_lineMax st.
Proof.
  unfold r_paragraph. intros H L.
  rbind H as [[nl u] st1] eqn:PS.
  pose proof (para_scan_bounds _ _ _ _ _ _ _ _ _ _ PS) as (P1 & P2 & _). cbn [b_lineMax st_parent] in P2.
  assert (P2' : nl <= b_lineMax st) by (apply P2; change (b_lineMax (st_parent st nm_paragraph)) with (b_lineMax st); lia).
  apply (para_scan_tokens term T) in PS. change (b_tokens (st_parent st nm_paragraph)) with (b_tokens st) in PS.
  rstep H. rfinish H.
  split; [|cbn; lia]. apply para_push_maps; [exact PS | lia | lia | reflexivity | reflexivity].
Qed.

Theorem r_lheading_maps term (T : term_same term) st sl el st' :
  r_lheading cfg term st sl el false = Ok (true, st') -> sl < el -> leaf_maps st sl st' /\ b_line st' <= el.
Proof.
  unfold r_lheading. intros H L. rstep H. rstep H; [discriminate H|].
  rbind H as [[nl u] st1] eqn:PS.
  pose proof (para_scan_bounds _ _ _ _ _ _ _ _ _ _ PS) as (P1 & P2 & P3).
  apply (para_scan_tokens term T) in PS. change (b_tokens (st_parent st nm_paragraph)) with (b_tokens st) in PS.
  destruct u as [[marker level]|]; [|discriminate H].
  assert (P3' : nl < el) by (apply P3; discriminate).
  rstep H. rfinish H.
  split; [|cbn; lia]. apply para_push_maps; [exact PS | lia | lia | reflexivity | reflexivity].
Qed.

End Maps.
