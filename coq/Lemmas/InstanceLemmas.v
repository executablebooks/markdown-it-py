(* The facade (MarkdownIt).  Every management call respects any relation that
   ruler steps and option / render updates respect: this gives coherence of the
   four chain caches over any facade history (C11 through MarkdownIt) here, and
   cache-independence (C12) and name monotonicity (C14) in WorldLemmas / ResetLemmas. *)
From MD Require Import Base.Py Model.Ruler Model.Instance Lemmas.RulerCoherent.

Section mop_ind.
Context (P : mop -> Prop).
Context (HEnable : forall n i, P (MEnable n i)).
Context (HDisable : forall n i, P (MDisable n i)).
Context (HRuler : forall c o, P (MRuler c o)).
Context (HConfigure : forall p u, P (MConfigure p u)).
Context (HSetItem : forall k v, P (MSetItem k v)).
Context (HSetOptions : forall o, P (MSetOptions o)).
Context (HAdd : forall n f b, P (MAddRenderRule n f b)).
Context (HActive : P MActive).
Context (HAll : P MAll).
Context (HOptions : P MOptions).
Context (HReset : forall body r, Forall P body -> P (MReset body r)).

Fixpoint mop_ind' (o : mop) : P o :=
  match o with
  | MEnable n i => HEnable n i
  | MDisable n i => HDisable n i
  | MRuler c o => HRuler c o
  | MConfigure p u => HConfigure p u
  | MSetItem k v => HSetItem k v
  | MSetOptions o => HSetOptions o
  | MAddRenderRule n f b => HAdd n f b
  | MActive => HActive
  | MAll => HAll
  | MOptions => HOptions
  | MReset body r =>
      HReset body r
        ((fix go (l : list mop) : Forall P l :=
            match l with
            | [] => Forall_nil P
            | x :: l' => Forall_cons x (mop_ind' x) (go l')
            end) body)
  end.
End mop_ind.

Local Arguments restore : simpl never.

(* a call that stops at the first exception; restore and the components loop of configure are chains of these *)
Definition and_then (x : inst * res mout) (k : inst -> inst * res mout) : inst * res mout :=
  match x with
  | (i, Ok _) => k i
  | (i, Raise e) => (i, Raise e)
  | (i, OutOfFuel) => (i, OutOfFuel)
  end.

Lemma restore_eq a b c d i :
  restore (MONames4 a b c d) i =
  and_then (enable_only_chain i 0 a) (fun i0 =>
  and_then (enable_only_chain i0 1 b) (fun i1 =>
  and_then (enable_only_chain i1 2 c) (fun i2 => enable_only_chain i2 3 d))).
Proof. reflexivity. Qed.

Definition component_rules (name : str) (rules : option (list str)) (i : inst) : inst * res mout :=
  match rules with
  | Some (x :: l) =>
      match chain_of_name name with
      | None => (i, Raise KeyError)
      | Some c => enable_only_chain i c (x :: l)
      end
  | _ => (i, Ok MONone)
  end.

Definition component_rules2 (name : str) (rules2 : option (list str)) (i : inst) : inst * res mout :=
  match rules2 with
  | Some (x :: l) =>
      match chain_of_name name with
      | None => (i, Raise KeyError)
      | Some 2 => enable_only_chain i 3 (x :: l)
      | Some _ => (i, Raise AttributeError)
      end
  | _ => (i, Ok MONone)
  end.

Lemma configure_components_cons name rules rules2 rest i :
  configure_components ((name, (rules, rules2)) :: rest) i =
  and_then (component_rules name rules i) (fun i1 =>
  and_then (component_rules2 name rules2 i1) (configure_components rest)).
Proof.
  cbn [configure_components]. fold (component_rules name rules i).
  destruct (component_rules name rules i) as [i1 [?|?|]]; try reflexivity.
  cbn [and_then]. fold (component_rules2 name rules2 i1).
  destruct (component_rules2 name rules2 i1) as [i2 [?|?|]]; reflexivity.
Qed.

(* Every call is made of ruler steps on one chain, updates of the options and
   of the render rules, and reads of the options.  A relation between two
   instances that these respect (with equal results) is respected by every
   call, whatever the nesting of reset_rules blocks.  With [R a b] of the form
   [a = b /\ P a] this is the preservation of an invariant [P]. *)
Section Respect.
Context (R : inst -> inst -> Prop).

Definition rel_res (x y : inst * res mout) : Prop := R (fst x) (fst y) /\ snd x = snd y.

Context (R_step : forall a b c o, R a b ->
           R (set_chain a c (fst (step (get_chain a c) o))) (set_chain b c (fst (step (get_chain b c) o)))
           /\ snd (step (get_chain a c) o) = snd (step (get_chain b c) o))
        (R_opts : forall a b, R a b -> i_opts a = i_opts b)
        (R_set_opts : forall a b o, R a b -> R (set_opts a o) (set_opts b o))
        (R_render : forall a b, R a b -> i_render a = i_render b)
        (R_set_render : forall a b m, R a b -> R (set_render a m) (set_render b m)).

Lemma rel_ret a b x : R a b -> rel_res (a, x) (b, x).
Proof. intros S; split; [exact S | reflexivity]. Qed.

Lemma rel_and_then x y k1 k2 :
  rel_res x y -> (forall a b, R a b -> rel_res (k1 a) (k2 b)) -> rel_res (and_then x k1) (and_then y k2).
Proof.
  destruct x as [a ra], y as [b rb]. intros [S E] K. simpl in S, E. subst rb.
  destruct ra; [apply K, S | apply rel_ret, S | apply rel_ret, S].
Qed.

Lemma ruler_call_rel fin c o a b : R a b -> rel_res (mstep fin a (MRuler c o)) (mstep fin b (MRuler c o)).
Proof.
  intros S. destruct (R_step a b c o S) as [S' E]. simpl.
  destruct (step (get_chain a c) o), (step (get_chain b c) o). simpl in S', E. subst.
  apply rel_ret, S'.
Qed.

Lemma enable_only_chain_rel c names a b :
  R a b -> rel_res (enable_only_chain a c names) (enable_only_chain b c names).
Proof. exact (ruler_call_rel false c (OpEnableOnly names false) a b). Qed.

(* enable / disable on the facade: the same ruler step on each of the four chains *)
Lemma md_toggle_rel v names ign a b : R a b -> rel_res (md_toggle v names ign a) (md_toggle v names ign b).
Proof.
  intros S. set (o := if v then OpEnable names true else OpDisable names true : op Z).
  assert (T : forall r, toggle v names true r = step r o) by (destruct v; reflexivity).
  destruct (R_step _ _ 0 o S) as [S0 E0]. destruct (R_step _ _ 1 o S0) as [S1 E1].
  destruct (R_step _ _ 2 o S1) as [S2 E2]. destruct (R_step _ _ 3 o S2) as [S3 E3].
  simpl in *. unfold md_toggle. rewrite !T, (R_opts a b S), (R_render a b S) in *.
  destruct (step (i_core a) o), (step (i_block a) o), (step (i_inline a) o), (step (i_inline2 a) o),
    (step (i_core b) o), (step (i_block b) o), (step (i_inline b) o), (step (i_inline2 b) o).
  simpl in *. subst. apply rel_ret, S3.
Qed.

Lemma names_rel a b c : R a b ->
  active_names (get_chain a c) = active_names (get_chain b c)
  /\ all_names (get_chain a c) = all_names (get_chain b c).
Proof.
  intros S. destruct (R_step a b c OpActive S) as [_ A]. destruct (R_step a b c OpAll S) as [_ B].
  simpl in A, B. split; congruence.
Qed.

Lemma active4_rel a b : R a b -> active4 a = active4 b.
Proof.
  intros S. unfold active4.
  f_equal; [exact (proj1 (names_rel a b 0 S)) | exact (proj1 (names_rel a b 1 S))
           | exact (proj1 (names_rel a b 2 S)) | exact (proj1 (names_rel a b 3 S))].
Qed.

Lemma restore_rel snap a b : R a b -> rel_res (restore snap a) (restore snap b).
Proof.
  intros S. destruct snap as [|c0 c1 c2 c3|]; try exact (rel_ret _ _ _ S). rewrite !restore_eq.
  apply rel_and_then; [apply enable_only_chain_rel, S|]. intros a0 b0 S0.
  apply rel_and_then; [apply enable_only_chain_rel, S0|]. intros a1 b1 S1.
  apply rel_and_then; [apply enable_only_chain_rel, S1|]. intros a2 b2 S2.
  apply enable_only_chain_rel, S2.
Qed.

Lemma configure_components_rel comps : forall a b,
  R a b -> rel_res (configure_components comps a) (configure_components comps b).
Proof.
  induction comps as [|[name [rules rules2]] rest IH]; intros a b S; [apply rel_ret, S|].
  rewrite !configure_components_cons. apply rel_and_then.
  - destruct rules as [[|x l]|]; try apply rel_ret, S. simpl.
    destruct (chain_of_name name); [apply enable_only_chain_rel, S | apply rel_ret, S].
  - intros a1 b1 S1. apply rel_and_then; [|exact IH].
    destruct rules2 as [[|x l]|]; try apply rel_ret, S1. simpl.
    destruct (chain_of_name name) as [[|[p|p|]|]|]; try apply rel_ret, S1.
    destruct p; try apply rel_ret, S1. apply enable_only_chain_rel, S1.
Qed.

Theorem mstep_rel fin (o : mop) : forall a b, R a b -> rel_res (mstep fin a o) (mstep fin b o).
Proof.
  induction o as [| | c o| p u| | | n f b0| | | |body r HF] using mop_ind'; intros a b S.
  - apply md_toggle_rel, S.
  - apply md_toggle_rel, S.
  - apply ruler_call_rel, S.
  - simpl. unfold configure. destruct p; [|apply rel_ret, S].
    apply configure_components_rel, R_set_opts, S.
  - simpl. rewrite (R_opts a b S). apply rel_ret, R_set_opts, S.
  - apply rel_ret, R_set_opts, S.
  - simpl. rewrite (R_render a b S). apply rel_ret. destruct b0; [apply R_set_render, S | exact S].
  - simpl. rewrite (active4_rel a b S). apply rel_ret, S.
  - simpl. destruct (names_rel a b 0 S) as [_ E0], (names_rel a b 1 S) as [_ E1],
      (names_rel a b 2 S) as [_ E2], (names_rel a b 3 S) as [_ E3]. simpl in *.
    rewrite E0, E1, E2, E3. apply rel_ret, S.
  - simpl. rewrite (R_opts a b S). apply rel_ret, S.
  - (* reset_rules: the body stops at its first exception; then the exit *)
    simpl.
    set (go := fix go (ops : list mop) (i : inst) {struct ops} : inst * res mout :=
           match ops with
           | [] => (i, match r with Some n => Raise (UserExn n) | None => Ok MONone end)
           | o :: ops' => match mstep fin i o with
                          | (i', Ok _) => go ops' i'
                          | bad => bad end
           end).
    assert (G : forall x y, R x y -> rel_res (go body x) (go body y)).
    { induction HF as [|o1 ops Ho _ IHo]; intros x y Hs; [apply rel_ret, Hs|].
      exact (rel_and_then _ _ (go ops) (go ops) (Ho x y Hs) IHo). }
    specialize (G a b S). rewrite (active4_rel a b S).
    destruct (go body a) as [a' ra], (go body b) as [b' rb], G as [S' E']. simpl in S', E'. subst rb.
    pose proof (restore_rel (active4 b) a' b' S') as [S'' E''].
    destruct ra; [split; assumption | |];
      (destruct fin; [|apply rel_ret, S']);
      destruct (restore (active4 b) a') as [a'' ra'], (restore (active4 b) b') as [b'' rb'];
      simpl in S'', E''; subst rb'; destruct ra'; apply rel_ret, S''.
Qed.

End Respect.

Theorem mstep_inv (P : inst -> Prop) :
  (forall i c o, P i -> P (set_chain i c (fst (step (get_chain i c) o)))) ->
  (forall i o, P i -> P (set_opts i o)) -> (forall i m, P i -> P (set_render i m)) ->
  forall fin o i, P i -> P (fst (mstep fin i o)).
Proof.
  intros Hs Ho Hr fin o i H.
  refine (proj2 (proj1 (mstep_rel (fun a b => a = b /\ P a) _ _ _ _ _ fin o i i (conj eq_refl H)))).
  - intros a b c x [-> Hb]. auto.
  - intros a b [-> _]. reflexivity.
  - intros a b x [-> Hb]. auto.
  - intros a b [-> _]. reflexivity.
  - intros a b m [-> Hb]. auto.
Qed.

Definition ICoherent (i : inst) : Prop :=
  Coherent (i_core i) /\ Coherent (i_block i) /\ Coherent (i_inline i) /\ Coherent (i_inline2 i).

Lemma get_set_chain_coherent i c r :
  ICoherent i -> Coherent r -> ICoherent (set_chain i c r).
Proof.
  unfold ICoherent, set_chain. intros [A [B [C D]]] H.
  destruct c as [|[p|p|]|]; simpl; try tauto; try (destruct p; simpl; tauto).
Qed.

Lemma get_chain_coherent i c : ICoherent i -> Coherent (get_chain i c).
Proof.
  unfold ICoherent, get_chain. intros [A [B [C D]]].
  destruct c as [|[p|p|]|]; try tauto; destruct p; tauto.
Qed.

Lemma chain_step_coherent i c o :
  ICoherent i -> ICoherent (set_chain i c (fst (step (get_chain i c) o))).
Proof. intros H. apply get_set_chain_coherent, step_coherent, get_chain_coherent; exact H. Qed.

Lemma mstep_coherent fin (o : mop) : forall i, ICoherent i -> ICoherent (fst (mstep fin i o)).
Proof. apply (mstep_inv ICoherent chain_step_coherent); intros i x H; exact H. Qed.

Theorem facade_history_coherent fin ops : forall i, ICoherent i -> ICoherent (mrun fin ops i).
Proof. apply fold_left_inv. intros i o. apply mstep_coherent. Qed.

Lemma bare_coherent a b c d : ICoherent (bare_inst a b c d).
Proof. unfold ICoherent, Coherent; simpl; tauto. Qed.

(* applied = reported through the facade, for each of the four chains and any
   terminator chain name *)
Theorem facade_applied_eq_reported fin a b c d ops which chain :
  let i := mrun fin ops (bare_inst a b c d) in
  let r := get_chain i which in
  snd (get_rules r chain) = map rfn (filter (in_chain chain) (active r)).
Proof.
  intros i r. apply get_rules_spec. apply get_chain_coherent.
  apply facade_history_coherent, bare_coherent.
Qed.
