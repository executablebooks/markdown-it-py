(* C12 / C14: what an instance does depends only on its configuration proper
   ([strip]: options, rules, render rules) -- never on the state of the lazily
   compiled caches, hence never on which parses ran before -- and operations on
   one instance leave every other instance untouched. *)
From MD Require Import Base.Py Model.Ruler Model.Instance Model.World Lemmas.RulerCoherent Lemmas.InstanceLemmas.

Lemma drop_coherent {F} (r : ruler F) : Coherent (drop_cache r).
Proof. exact I. Qed.

Lemma toggle_drop {F} v names ign (r : ruler F) :
  toggle v names ign (drop_cache r) = toggle v names ign r.
Proof. reflexivity. Qed.

(* every operation but getRules either drops the cache itself or leaves the ruler as it is, without reading the cache *)
Lemma step_drop {F} (r : ruler F) (o : op F) :
  Coherent r ->
  drop_cache (fst (step r o)) = drop_cache (fst (step (drop_cache r) o))
  /\ snd (step r o) = snd (step (drop_cache r) o).
Proof.
  intros H. destruct o; simpl;
    try (destruct (find (rules r) _); simpl; split; reflexivity);
    try (split; reflexivity).
  - (* getRules reads the cache: coherent, it answers what compiling the rules afresh answers *)
    pose proof (get_rules_spec r chain H) as A.
    pose proof (get_rules_rules r chain) as C.
    destruct (get_rules r chain) as [r1 l1]. simpl in *. split.
    + unfold drop_cache. rewrite C. reflexivity.
    + rewrite A, compile_correct. unfold compile_chain, active. rewrite filter_filter_and. reflexivity.
Qed.

Lemma strip_coherent i : ICoherent (strip i).
Proof. unfold ICoherent, strip; simpl. repeat split; exact I. Qed.

Lemma strip_idem i : strip (strip i) = strip i.
Proof. reflexivity. Qed.

Lemma strip_get_chain i c : get_chain (strip i) c = drop_cache (get_chain i c).
Proof. destruct c as [|[p|p|]|]; try reflexivity; destruct p; reflexivity. Qed.

Lemma strip_set_chain i c r : strip (set_chain i c r) = set_chain (strip i) c (drop_cache r).
Proof. destruct c as [|[p|p|]|]; try reflexivity; destruct p; reflexivity. Qed.

(* strip forgets the caches, so equal strips say nothing about them: both instances have to be coherent for getRules
   to answer alike (a stale cache on one side is what RulerCoherent.stale_cache_refuted exhibits) *)
Definition Sim (a b : inst) : Prop := strip a = strip b /\ ICoherent a /\ ICoherent b.

Lemma mkSim a b : strip a = strip b -> ICoherent a -> ICoherent b -> Sim a b.
Proof. intros; split; [|split]; assumption. Qed.

Lemma sim_refl i : ICoherent i -> Sim i i.
Proof. intros H; exact (mkSim i i eq_refl H H). Qed.

Lemma sim_refl_strip i : ICoherent i -> Sim i (strip i).
Proof. intros H; apply mkSim; [reflexivity | exact H | apply strip_coherent]. Qed.

Lemma sim_sym a b : Sim a b -> Sim b a.
Proof. intros [E [Ca Cb]]. exact (mkSim b a (eq_sym E) Cb Ca). Qed.

Lemma step_sim {F} (r1 r2 : ruler F) (o : op F) :
  Coherent r1 -> Coherent r2 -> drop_cache r1 = drop_cache r2 ->
  drop_cache (fst (step r1 o)) = drop_cache (fst (step r2 o)) /\ snd (step r1 o) = snd (step r2 o).
Proof.
  intros H1 H2 E.
  destruct (step_drop r1 o H1) as [A1 B1]. destruct (step_drop r2 o H2) as [A2 B2].
  rewrite A1, A2, B1, B2, E. split; reflexivity.
Qed.

(* InstanceLemmas.rel_res at Sim *)
Definition RSim (x y : inst * res mout) : Prop := Sim (fst x) (fst y) /\ snd x = snd y.

Lemma sim_chain_step a b c o : Sim a b ->
  Sim (set_chain a c (fst (step (get_chain a c) o))) (set_chain b c (fst (step (get_chain b c) o)))
  /\ snd (step (get_chain a c) o) = snd (step (get_chain b c) o).
Proof.
  intros [E [Ca Cb]].
  destruct (step_sim (get_chain a c) (get_chain b c) o (get_chain_coherent a c Ca) (get_chain_coherent b c Cb))
    as [A B]; [rewrite <- !strip_get_chain, E; reflexivity|].
  split; [|exact B]. apply mkSim; try apply chain_step_coherent; try assumption.
  rewrite !strip_set_chain, E, A. reflexivity.
Qed.

Lemma set_opts_sim a b o : Sim a b -> Sim (set_opts a o) (set_opts b o).
Proof.
  intros [E C]. split; [|exact C].
  change (set_opts (strip a) o = set_opts (strip b) o). rewrite E. reflexivity.
Qed.

Lemma set_render_sim a b m : Sim a b -> Sim (set_render a m) (set_render b m).
Proof.
  intros [E C]. split; [|exact C].
  change (set_render (strip a) m = set_render (strip b) m). rewrite E. reflexivity.
Qed.

Theorem mstep_sim fin (o : mop) : forall a b, Sim a b -> RSim (mstep fin a o) (mstep fin b o).
Proof.
  apply (mstep_rel Sim sim_chain_step); intros a b.
  - intros [E _]. exact (f_equal i_opts E).
  - intros x. apply set_opts_sim.
  - intros [E _]. exact (f_equal i_render E).
  - intros m. apply set_render_sim.
Qed.

Lemma strip_set_same x k (r : ruler Z) :
  rules r = rules (get_chain x k) -> strip (set_chain x k r) = strip x.
Proof.
  intros E. destruct k as [|[p|p|]|]; unfold strip, set_chain, get_chain, drop_cache in *; simpl in *;
    try (rewrite E; reflexivity); destruct p; simpl in *; rewrite E; reflexivity.
Qed.

(* getRules on chain k of x, as a parse does it *)
Definition touch (k : Z) (c : str) (x : inst) : inst :=
  set_chain x k (fst (get_rules (get_chain x k) c)).

Lemma parse_touch_cons c cs i :
  parse_touch (c :: cs) i = parse_touch cs (touch 3 c (touch 2 c (touch 1 c (touch 0 c i)))).
Proof. reflexivity. Qed.

Lemma touch_sim k c x y : Sim x y -> Sim (touch k c x) y.
Proof.
  intros [E [Cx Cy]]. apply mkSim; [| |exact Cy].
  - unfold touch. rewrite strip_set_same; [exact E | apply get_rules_rules].
  - apply get_set_chain_coherent; [exact Cx|]. apply get_rules_coherent, get_chain_coherent, Cx.
Qed.

Lemma parse_touch_sim_l chains : forall i j, Sim i j -> Sim (parse_touch chains i) j.
Proof.
  induction chains as [|c cs IH]; intros i j S; [exact S|].
  rewrite parse_touch_cons. apply IH. repeat apply touch_sim. exact S.
Qed.

Lemma parse_touch_sim chains : forall i, ICoherent i -> Sim (parse_touch chains i) i.
Proof. intros i H. apply parse_touch_sim_l, sim_refl, H. Qed.

Lemma set_nth_same {A} (l : list A) j x : nth_error l j = Some x -> set_nth j x l = l.
Proof.
  revert j; induction l as [|y l IH]; intros [|j]; simpl; intros H; try discriminate.
  - injection H as ->. reflexivity.
  - rewrite IH; [reflexivity | exact H].
Qed.

Lemma nth_set_nth_other {A} (l : list A) j k x : j <> k -> nth_error (set_nth k x l) j = nth_error l j.
Proof.
  revert j k; induction l as [|y l IH]; intros [|j] [|k] H; simpl; try reflexivity; try congruence.
  apply IH. congruence.
Qed.

Lemma length_set_nth {A} (l : list A) k x : length (set_nth k x l) = length l.
Proof. revert k; induction l as [|y l IH]; intros [|k]; simpl; auto. Qed.

Lemma nth_error_app_last {A} (l1 l2 : list A) x j :
  length l1 = length l2 -> nth_error l1 j = nth_error l2 j ->
  nth_error (l1 ++ [x]) j = nth_error (l2 ++ [x]) j.
Proof.
  intros L N. destruct (Nat.lt_ge_cases j (length l1)) as [Hlt|Hge].
  - rewrite !nth_error_app1; [exact N | rewrite <- L; exact Hlt | exact Hlt].
  - rewrite !nth_error_app2; [rewrite L; reflexivity | rewrite <- L; exact Hge | exact Hge].
Qed.

Lemma nth_set_nth_same {A} (l1 l2 : list A) j x :
  length l1 = length l2 -> nth_error (set_nth j x l1) j = nth_error (set_nth j x l2) j.
Proof.
  revert l2 j; induction l1 as [|a l1 IH]; intros [|b l2] [|j] L; simpl in *; try discriminate; try reflexivity.
  apply IH. congruence.
Qed.

Section WorldThms.
Context (bare : inst) (Hbare : ICoherent bare).

Definition WCoh (w : list inst) : Prop := Forall ICoherent w.
Definition WSim (w1 w2 : list inst) : Prop := Forall2 Sim w1 w2.

Lemma wsim_refl w : WCoh w -> WSim w w.
Proof.
  induction 1 as [|i w Hi Hw IH]; constructor; [|exact IH].
  apply sim_refl, Hi.
Qed.

Lemma wsim_sym w1 w2 : WSim w1 w2 -> WSim w2 w1.
Proof. induction 1 as [|a b w1 w2 S _ IH]; constructor; [apply sim_sym, S | exact IH]. Qed.

Lemma wsim_nth w1 w2 j : WSim w1 w2 ->
  match nth_error w1 j, nth_error w2 j with
  | Some a, Some b => Sim a b
  | None, None => True
  | _, _ => False
  end.
Proof.
  intros H; revert j; induction H as [|a b w1 w2 S _ IH]; intros [|j]; simpl; auto. apply IH.
Qed.

Lemma wsim_set_nth w1 w2 j a b : WSim w1 w2 -> Sim a b -> WSim (set_nth j a w1) (set_nth j b w2).
Proof.
  intros H S; revert j; induction H as [|x y w1 w2 Sxy Hw IH]; intros [|j]; simpl;
    try constructor; auto. apply IH.
Qed.

Lemma wsim_app w1 w2 a b : WSim w1 w2 -> Sim a b -> WSim (w1 ++ [a]) (w2 ++ [b]).
Proof. intros H S. apply Forall2_app; [exact H | constructor; [exact S | constructor]]. Qed.

Lemma mstep_coh_sim a o : ICoherent a -> ICoherent (fst (mstep true a o)).
Proof. apply mstep_coherent. Qed.

Lemma wstep_parse_sim w1 w2 j chains :
  WSim w1 w2 -> WSim (fst (wstep bare w1 (WParse j chains))) w2.
Proof.
  intros H. pose proof (wsim_nth w1 w2 j H) as N. simpl.
  destruct (nth_error w1 j) as [a|], (nth_error w2 j) as [b|] eqn:N2; try contradiction; [|exact H].
  rewrite <- (set_nth_same w2 j b N2). apply wsim_set_nth; [exact H | apply parse_touch_sim_l, N].
Qed.

Theorem wstep_sim w1 w2 o : WSim w1 w2 ->
  WSim (fst (wstep bare w1 o)) (fst (wstep bare w2 o)) /\ snd (wstep bare w1 o) = snd (wstep bare w2 o).
Proof.
  intros H. destruct o as [p upd | j o | j chains].
  - pose proof (mstep_sim true (MConfigure p upd) bare bare (sim_refl bare Hbare)) as [S E].
    cbn [mstep] in S, E. simpl. destruct (configure p upd bare) as [i [r|e|]]; simpl in *.
    + split; [apply wsim_app; assumption | reflexivity].
    + split; [exact H | reflexivity].
    + split; [exact H | reflexivity].
  - pose proof (wsim_nth w1 w2 j H) as N. simpl.
    destruct (nth_error w1 j) as [a|], (nth_error w2 j) as [b|]; try contradiction.
    + pose proof (mstep_sim true o a b N) as [S E].
      destruct (mstep true a o) as [a' ra], (mstep true b o) as [b' rb]. simpl in *.
      split; [apply wsim_set_nth; assumption | exact E].
    + split; [exact H | reflexivity].
  - split.
    + apply wstep_parse_sim, wsim_sym, wstep_parse_sim, wsim_sym, H.
    + pose proof (wsim_nth w1 w2 j H) as N. simpl.
      destruct (nth_error w1 j), (nth_error w2 j); try contradiction; reflexivity.
Qed.

Theorem parse_inert w j chains : WCoh w -> WSim (fst (wstep bare w (WParse j chains))) w.
Proof. intros H. apply wstep_parse_sim, wsim_refl, H. Qed.

Definition not_parse (o : wop) : bool := negb (is_parse o).

Fixpoint mgmt_trace (ops : list wop) (w : list inst) : list (res mout) :=
  match ops with
  | [] => []
  | o :: ops' =>
      let '(w', r) := wstep bare w o in
      if is_parse o then mgmt_trace ops' w' else r :: mgmt_trace ops' w'
  end.

Theorem parses_do_not_matter ops : forall w1 w2, WSim w1 w2 ->
  WSim (wrun bare ops w1) (wrun bare (filter not_parse ops) w2)
  /\ mgmt_trace ops w1 = wtrace bare (filter not_parse ops) w2.
Proof.
  unfold wrun. induction ops as [|o ops IH]; intros w1 w2 H; simpl; [split; [exact H | reflexivity]|].
  destruct (is_parse o) eqn:P; unfold not_parse; rewrite P; cbn [negb fold_left wtrace].
  - destruct o as [| |j chains]; try discriminate.
    pose proof (wstep_parse_sim w1 w2 j chains H) as S.
    destruct (wstep bare w1 (WParse j chains)) as [w1' r1]. apply IH, S.
  - destruct (wstep_sim w1 w2 o H) as [S E].
    destruct (wstep bare w1 o) as [w1' r1], (wstep bare w2 o) as [w2' r2].
    simpl in *. subst r2. destruct (IH w1' w2' S) as [A B]. split; [exact A | rewrite B; reflexivity].
Qed.

Theorem isolation w o j : concerns j o = false ->
  nth_error (fst (wstep bare w o)) j = nth_error w j /\ length (fst (wstep bare w o)) = length w.
Proof.
  destruct o as [p upd | k o | k chains]; simpl; try discriminate; intros H;
    apply PeanoNat.Nat.eqb_neq in H.
  - destruct (nth_error w k); [|split; reflexivity].
    destruct (mstep true i o). simpl. split; [apply nth_set_nth_other; congruence | apply length_set_nth].
  - destruct (nth_error w k); [|split; reflexivity]. simpl.
    split; [apply nth_set_nth_other; congruence | apply length_set_nth].
Qed.

Definition Agree (j : nat) (w1 w2 : list inst) : Prop :=
  length w1 = length w2 /\ nth_error w1 j = nth_error w2 j.

Lemma wstep_agree j w1 w2 o : concerns j o = true -> Agree j w1 w2 ->
  Agree j (fst (wstep bare w1 o)) (fst (wstep bare w2 o)) /\ snd (wstep bare w1 o) = snd (wstep bare w2 o).
Proof.
  intros C [L N]. destruct o as [p upd | k o | k chains]; simpl in *.
  - destruct (configure p upd bare) as [i [r|e|]]; simpl; (split; [|reflexivity]); try (split; assumption).
    split; [rewrite !app_length, L; reflexivity | apply nth_error_app_last; assumption].
  - apply PeanoNat.Nat.eqb_eq in C; subst k. rewrite N.
    destruct (nth_error w2 j) as [i|] eqn:N2; [|split; [split; simpl; congruence | reflexivity]].
    destruct (mstep true i o) as [i' r]. simpl. split; [|reflexivity].
    split; [rewrite !length_set_nth; exact L | apply nth_set_nth_same, L].
  - apply PeanoNat.Nat.eqb_eq in C; subst k. rewrite N.
    destruct (nth_error w2 j) as [i|] eqn:N2; [|split; [split; simpl; congruence | reflexivity]].
    simpl. split; [|reflexivity].
    split; [rewrite !length_set_nth; exact L | apply nth_set_nth_same, L].
Qed.

Fixpoint own_trace (j : nat) (ops : list wop) (w : list inst) : list (res mout) :=
  match ops with
  | [] => []
  | o :: ops' =>
      let '(w', r) := wstep bare w o in
      if concerns j o then r :: own_trace j ops' w' else own_trace j ops' w'
  end.

Theorem others_do_not_matter j ops : forall w1 w2, Agree j w1 w2 ->
  Agree j (wrun bare ops w1) (wrun bare (filter (concerns j) ops) w2)
  /\ own_trace j ops w1 = wtrace bare (filter (concerns j) ops) w2.
Proof.
  unfold wrun. induction ops as [|o ops IH]; intros w1 w2 H; simpl; [split; [exact H | reflexivity]|].
  destruct (concerns j o) eqn:C; cbn [fold_left wtrace].
  - destruct (wstep_agree j w1 w2 o C H) as [A E].
    destruct (wstep bare w1 o) as [w1' r1], (wstep bare w2 o) as [w2' r2]. simpl in *. subst r2.
    destruct (IH w1' w2' A) as [A' B]. split; [exact A' | rewrite B; reflexivity].
  - destruct (isolation w1 o j C) as [N L].
    destruct (wstep bare w1 o) as [w1' r1]. simpl in *.
    apply IH. destruct H as [L0 N0]. split; congruence.
Qed.

End WorldThms.
