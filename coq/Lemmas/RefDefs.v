(* C10: the inline_definitions option only ADDS definition tokens.  The reference rule run under two configurations that differ
   in nothing but this option, from the same state and with the same callback: same answer; when it fails or runs silently the
   two states are identical; when it records a definition the state with the option on is the state with the option off plus
   exactly one token - type "definition", nesting 0, map = the definition's own lines - at the end of the token list: same
   env (first-wins bookkeeping included), same line, same parent type, same everything else.  Proof: the two computations are
   destructed in lock step (they are the same term up to the last branch). *)
From RecordUpdate Require Import RecordUpdate.
From MD Require Import Base.Py Model.Token Model.Utils Model.StateBlock Model.Render Model.Block Lemmas.Phases.

Section D.
Context (cfg : bcfg) (rf cf : str -> str).
Definition with_defs (b : bool) : bcfg := mkBCfg (c_rules cfg) (c_term cfg) (c_code cfg) (c_maxNesting cfg) (c_html cfg) b.
Lemma with_defs_fields b : c_inline_defs (with_defs b) = b /\ c_rules (with_defs b) = c_rules cfg /\ c_term (with_defs b) = c_term cfg
  /\ c_code (with_defs b) = c_code cfg /\ c_maxNesting (with_defs b) = c_maxNesting cfg /\ c_html (with_defs b) = c_html cfg.
Proof. repeat split. Qed.
Let off := with_defs false.
Let on := with_defs true.

Theorem reference_inline_defs term st sl el silent b1 s1 b2 s2 :
  r_reference off rf cf term st sl el silent = Ok (b1, s1) ->
  r_reference on rf cf term st sl el silent = Ok (b2, s2) ->
  b2 = b1 /\ (b1 = false \/ silent = true -> s2 = s1)
  /\ (b1 = true -> silent = false ->
      exists d, ttype d = s_definition /\ tnesting d = 0 /\ tmap d = Some (sl, b_line s1)
                /\ s2 = s1 <| b_tokens := b_tokens s1 ++ [d] |>).
Proof.
  intros H1 H2. rewrite r_reference_eq in H1, H2. change (ref_head on st sl) with (ref_head off st sl) in H2.
  destruct (ref_head off st sl) as [go|?|]; cbn [bind] in H1, H2; [|discriminate H1..].
  destruct (negb go).
  2: destruct (para_scan _ _ _ _ _ _ _) as [[[nl u] st1]|?|]; cbn [bind] in H1, H2; [|discriminate H1..].
  2: destruct (get_lines _ _ _ _ _) as [raw|?|]; cbn [bind] in H1, H2; [|discriminate H1..].
  2: destruct (ref_parse rf cf (py_strip raw)) as [[[[[rawlabel label] title] href] lines]|]; [destruct silent|].
  all: injection H1 as <- <-; injection H2 as <- <-; split; [reflexivity|]; split; [intros D | intros A B].
  all: try reflexivity; try congruence.
  - destruct D as [X|X]; discriminate X.
  - eexists. split; [|split; [|split]]; [| | |reflexivity]; reflexivity.
Qed.
End D.
