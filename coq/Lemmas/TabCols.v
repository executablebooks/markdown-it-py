(* C17, structural tabs at the top level: the indentation column the block parser records for a line
   (sCount) is the tab-stop column width of the line's leading blanks, for every document; so
   re-spelling leading blanks - a tab for the spaces up to the next multiple of four, or back -
   leaves the whole sCount table (and the number of lines) unchanged. *)
From MD Require Import Base.Py Base.Str Model.Utils Model.StateBlock Lemmas.StrLemmas Lemmas.BlockLemmas.
From Coq Require Import ZifyBool.

Definition blank (c : Z) : Prop := c = 32 \/ c = 9.

(* the column reached after the blanks ws when starting in column off *)
Fixpoint cols (off : Z) (ws : list Z) : Z :=
  match ws with
  | [] => off
  | c :: r => cols (if c =? 9 then off + (4 - off mod 4) else off + 1) r
  end.

Fixpoint expand (off : Z) (ws : list Z) : list Z :=
  match ws with
  | [] => []
  | c :: r => if c =? 9 then repeat_z 32 (Z.to_nat (4 - off mod 4)) ++ expand (off + (4 - off mod 4)) r
              else c :: expand (off + 1) r
  end.

Lemma cols_spaces : forall k off, cols off (repeat_z 32 k) = off + Z.of_nat k.
Proof. induction k as [|k IH]; intros off; cbn [repeat_z cols]; [lia|]. change (32 =? 9) with false. cbv iota. rewrite IH. lia. Qed.

Lemma cols_app : forall a b off, cols off (a ++ b) = cols (cols off a) b.
Proof. induction a as [|c a IH]; intros b off; cbn [app cols]; [reflexivity|]. apply IH. Qed.

Theorem cols_expand : forall ws off, Forall blank ws -> cols off (expand off ws) = cols off ws.
Proof.
  induction ws as [|c ws IH]; intros off F; [reflexivity|]. inversion F as [|? ? Hc Hr]; subst.
  cbn [expand cols]. assert (M : 0 <= off mod 4 < 4) by (apply Z.mod_pos_bound; lia).
  destruct (c =? 9) eqn:E.
  - rewrite cols_app, cols_spaces. rewrite Z2Nat.id by lia. apply IH, Hr.
  - cbn [cols]. rewrite E. apply IH, Hr.
Qed.

Theorem expand_no_tab : forall ws off, Forall blank ws -> Forall (fun c => c = 32) (expand off ws).
Proof.
  induction ws as [|c ws IH]; intros off F; [constructor|]. inversion F as [|? ? Hc Hr]; subst. cbn [expand].
  destruct (c =? 9) eqn:E.
  - apply Forall_app. split; [|apply IH; exact Hr]. induction (Z.to_nat (4 - off mod 4)); cbn; constructor; auto.
  - constructor; [destruct Hc; [assumption | lia] | apply IH; exact Hr].
Qed.

Lemma scan_blanks : forall ws n bM eM tS sC start indent offset pos, Forall blank ws ->
  scan_loop n (mkScan bM eM tS sC false start indent offset) pos ws
  = mkScan bM eM tS sC false start (indent + len ws) (cols offset ws).
Proof.
  induction ws as [|c ws IH]; intros n bM eM tS sC start indent offset pos F; cbn [scan_loop cols].
  - unfold len. cbn. rewrite Z.add_0_r. reflexivity.
  - inversion F as [|? ? Hc Hr]; subst.
    assert (Sp : is_space c = true) by (destruct Hc; subst; reflexivity).
    unfold scan_step at 1. cbn [sc_found negb andb]. rewrite Sp. cbv iota.
    cbn [sc_bM sc_eM sc_tS sc_sC sc_start sc_indent sc_offset].
    rewrite IH by exact Hr. rewrite len_cons. f_equal. lia.
Qed.

(* inside a line (found = true) characters other than LF, before the last position, change nothing *)
Lemma scan_inside : forall body n bM eM tS sC start indent offset pos,
  (forall x, In x body -> x <> 10) -> pos + len body <= n - 1 ->
  scan_loop n (mkScan bM eM tS sC true start indent offset) pos body
  = mkScan bM eM tS sC true start indent offset.
Proof.
  induction body as [|c body IH]; intros n bM eM tS sC start indent offset pos Hno Hn; cbn [scan_loop]; [reflexivity|].
  assert (Hc : c <> 10) by (apply Hno; left; reflexivity).
  assert (Hl : len (c :: body) = 1 + len body) by (unfold len; cbn [length]; lia).
  unfold scan_step at 1. cbn [sc_found negb andb]. cbv iota.
  assert (E1 : (c =? 10) = false) by lia. assert (E2 : (pos =? n - 1) = false) by (unfold len in *; lia).
  rewrite E1, E2. cbn [orb]. cbv iota. cbn [sc_bM sc_eM sc_tS sc_sC sc_start sc_indent sc_offset].
  apply IH; [intros x Hx; apply Hno; right; exact Hx | lia].
Qed.

Record line := mkLine { l_ws : list Z; l_rest : list Z }.
Definition line_wf (l : line) : Prop :=
  Forall blank (l_ws l)
  /\ (l_rest l = [] \/ exists c body, l_rest l = c :: body /\ is_space c = false /\ c <> 10 /\ (forall x, In x body -> x <> 10)).
Definition line_text (l : line) : str := l_ws l ++ l_rest l ++ [10].
Definition doc_text (ls : list line) : str := concat (map line_text ls).

(* one line from its start; the scanner only copies [start], and it reads the length n (the test for the last
   position) only while inside the text of a line, so a blank line needs no bound *)
Lemma scan_line l n bM eM tS sC start pos : line_wf l -> (l_rest l <> [] -> pos + len (line_text l) <= n) ->
  scan_loop n (mkScan bM eM tS sC false start 0 0) pos (line_text l)
  = mkScan (start :: bM) (pos + len (l_ws l) + len (l_rest l) :: eM) (len (l_ws l) :: tS) (cols 0 (l_ws l) :: sC)
           false (pos + len (line_text l)) 0 0.
Proof.
  destruct l as [ws rest]. intros [F R] Hn. unfold line_text in *. cbn [l_ws l_rest] in *. rewrite !len_app in *. change (len [10]) with 1 in *.
  rewrite scan_loop_app, scan_blanks by exact F. rewrite Z.add_0_l.
  destruct R as [->|(c & body & -> & Sp & Nl & Nb)].
  - cbn [app scan_loop]. unfold scan_step. cbn [sc_found negb andb]. change (is_space 10) with false. cbv iota.
    change (10 =? 10) with true. cbn [orb]. cbv iota. cbn [sc_bM sc_eM sc_tS sc_sC sc_start sc_indent sc_offset].
    change (len []) with 0. f_equal; try lia. f_equal. lia.
  - specialize (Hn ltac:(discriminate)). cbn [app scan_loop]. rewrite len_cons in *. unfold scan_step at 1. cbn [sc_found negb andb]. rewrite Sp. cbv iota.
    assert (E1 : (c =? 10) = false) by lia.
    assert (E2 : (pos + len ws =? n - 1) = false) by (pose proof (len_nonneg body); lia).
    rewrite E1, E2. cbn [orb]. cbv iota. cbn [sc_bM sc_eM sc_tS sc_sC sc_start sc_indent sc_offset].
    rewrite scan_loop_app. rewrite scan_inside by (try assumption; lia).
    cbn [scan_loop]. unfold scan_step. cbn [sc_found negb andb]. cbv iota.
    change (10 =? 10) with true. cbn [orb]. cbv iota.
    cbn [sc_bM sc_eM sc_tS sc_sC sc_start sc_indent sc_offset]. f_equal; try lia. f_equal. lia.
Qed.

Lemma scan_doc : forall ls n bM eM tS sC pos, Forall line_wf ls -> pos + len (doc_text ls) <= n ->
  exists bM' eM',
    scan_loop n (mkScan bM eM tS sC false pos 0 0) pos (doc_text ls)
    = mkScan (bM' ++ bM) (eM' ++ eM) (rev (map (fun l => len (l_ws l)) ls) ++ tS) (rev (map (fun l => cols 0 (l_ws l)) ls) ++ sC)
             false (pos + len (doc_text ls)) 0 0
    /\ length bM' = length ls /\ length eM' = length ls.
Proof.
  induction ls as [|l ls IH]; intros n bM eM tS sC pos F Hn.
  - exists [], []. cbn. unfold len. cbn. rewrite Z.add_0_r. repeat split.
  - inversion F as [|? ? Hl Hr]; subst. unfold doc_text in *. cbn [map concat] in *. rewrite len_app in Hn.
    pose proof (len_nonneg (concat (map line_text ls))) as Ln.
    rewrite scan_loop_app. rewrite scan_line by (try exact Hl; lia).
    destruct (IH n (pos :: bM) (pos + len (l_ws l) + len (l_rest l) :: eM) (len (l_ws l) :: tS) (cols 0 (l_ws l) :: sC)
                 (pos + len (line_text l)) Hr ltac:(lia)) as (b' & e' & E & L1 & L2).
    exists (b' ++ [pos]), (e' ++ [pos + len (l_ws l) + len (l_rest l)]). rewrite E. split.
    + cbn [map rev]. rewrite <- !app_assoc. cbn [app]. rewrite len_app. f_equal. lia.
    + rewrite !app_length. cbn [length]. lia.
Qed.

Theorem init_columns ls env toks : Forall line_wf ls ->
  let st := state_init (doc_text ls) env toks in
  b_sCount st = map (fun l => cols 0 (l_ws l)) ls ++ [0]
  /\ b_tShift st = map (fun l => len (l_ws l)) ls ++ [0]
  /\ b_lineMax st = len ls.
Proof.
  intros F. cbv zeta. unfold state_init. cbv zeta.
  destruct (scan_doc ls (len (doc_text ls)) [] [] [] [] 0 F ltac:(lia)) as (b' & e' & E & L1 & L2).
  rewrite E. cbn [sc_bM sc_eM sc_tS sc_sC b_sCount b_tShift b_lineMax]. rewrite !app_nil_r.
  split; [|split].
  - cbn [rev]. rewrite rev_involutive. reflexivity.
  - cbn [rev]. rewrite rev_involutive. reflexivity.
  - unfold len. cbn [rev]. rewrite app_length, rev_length. cbn [length]. lia.
Qed.

Theorem respell_same_columns ls1 ls2 env1 toks1 env2 toks2 :
  Forall line_wf ls1 -> Forall line_wf ls2 ->
  Forall2 (fun a b => cols 0 (l_ws a) = cols 0 (l_ws b)) ls1 ls2 ->
  b_sCount (state_init (doc_text ls1) env1 toks1) = b_sCount (state_init (doc_text ls2) env2 toks2)
  /\ b_lineMax (state_init (doc_text ls1) env1 toks1) = b_lineMax (state_init (doc_text ls2) env2 toks2).
Proof.
  intros F1 F2 R.
  destruct (init_columns ls1 env1 toks1 F1) as (A1 & _ & A3). destruct (init_columns ls2 env2 toks2 F2) as (B1 & _ & B3).
  rewrite A1, B1, A3, B3. split.
  - f_equal. clear F1 F2 A1 B1 A3 B3. induction R as [|a b l1 l2 H R IH]; [reflexivity|]. cbn [map]. f_equal; [exact H | exact IH].
  - unfold len. f_equal. clear F1 F2 A1 B1 A3 B3. induction R; cbn [length]; [reflexivity | congruence].
Qed.

Definition expand_line (l : line) : line := mkLine (expand 0 (l_ws l)) (l_rest l).

Lemma expand_line_wf l : line_wf l -> line_wf (expand_line l).
Proof.
  intros [F R]. split; [|exact R]. cbn [l_ws expand_line].
  eapply Forall_impl; [|apply expand_no_tab; exact F]. intros c ->. left. reflexivity.
Qed.

Corollary expand_tabs_same_columns ls env toks : Forall line_wf ls ->
  b_sCount (state_init (doc_text (map expand_line ls)) env toks) = b_sCount (state_init (doc_text ls) env toks)
  /\ b_lineMax (state_init (doc_text (map expand_line ls)) env toks) = b_lineMax (state_init (doc_text ls) env toks).
Proof.
  intros F. apply respell_same_columns.
  - apply Forall_map. eapply Forall_impl; [|exact F]. intros l Hl. apply expand_line_wf, Hl.
  - exact F.
  - induction F as [|l ls Hl F IH]; cbn [map]; constructor; [|exact IH].
    cbn [l_ws expand_line]. apply cols_expand, Hl.
Qed.
