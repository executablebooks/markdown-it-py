(* C15: the depth-first walk of a SyntaxTreeNode built from a token stream visits the tokens in stream order
   (closing tokens, which have no node of their own, left out; the children of an inline / image token directly after it),
   for every stream whose tokens have nesting -1 / 0 / +1 and carry children only when unnested - and every stream the
   block parser returns is one. *)
From MD Require Import Base.Py Model.Token Model.StateBlock Model.Tree Model.Block Lemmas.TreeLemmas Lemmas.BlockWF
     Lemmas.BlockKinds Lemmas.TreeBuild.

Fixpoint wfw (t : token) : Prop :=
  (tnesting t = -1 \/ tnesting t = 0 \/ tnesting t = 1)
  /\ (tnesting t <> 0 -> childless t)
  /\ match tchildren t with
     | Some l => (fix go (l : list token) : Prop := match l with [] => True | x :: l' => wfw x /\ go l' end) l
     | None => True
     end.

Lemma wfw_go l :
  (fix go (l : list token) : Prop := match l with [] => True | x :: l' => wfw x /\ go l' end) l <-> Forall wfw l.
Proof.
  induction l as [|x l IH]; [split; auto|]. split.
  - intros [A B]. constructor; [exact A | apply IH, B].
  - intros F. inversion F as [|? ? A B]. split; [exact A | apply IH, B].
Qed.

Lemma wfw_unfold t : wfw t <->
  (tnesting t = -1 \/ tnesting t = 0 \/ tnesting t = 1) /\ (tnesting t <> 0 -> childless t)
  /\ match tchildren t with Some l => Forall wfw l | None => True end.
Proof.
  destruct t as [ty tg ns at_ mp lv ch ct mk inf mt bl hd]. cbn [wfw tnesting tchildren].
  destruct ch as [l|]; [rewrite wfw_go|]; reflexivity.
Qed.

Lemma walk_go ch :
  (fix go (l : list node) : list token := match l with [] => [] | x :: l' => walk_tokens x ++ go l' end) ch
  = flat_map walk_tokens ch.
Proof. apply fix_flat_map. Qed.

Lemma stream_go l :
  (fix go (l : list token) : list token := match l with [] => [] | x :: l' => stream_walk x ++ go l' end) l
  = stream_walk_list l.
Proof. apply fix_flat_map. Qed.

Lemma stream_walk_unfold t : stream_walk t =
  if tnesting t =? -1 then [] else t :: match tchildren t with Some l => stream_walk_list l | None => [] end.
Proof.
  destruct t as [ty tg ns at_ mp lv ch ct mk inf mt bl hd]. cbn [stream_walk tnesting tchildren].
  destruct ch as [l|]; [rewrite stream_go|]; reflexivity.
Qed.

Lemma stream_walk_list_app a b : stream_walk_list (a ++ b) = stream_walk_list a ++ stream_walk_list b.
Proof. unfold stream_walk_list. apply flat_map_app. Qed.

Theorem build_children_walk fuel : forall ts kids, Forall wfw ts ->
  build_children fuel ts = Ok kids -> flat_map walk_tokens kids = stream_walk_list ts.
Proof.
  intros ts kids W H. apply build_children_built in H. revert W.
  induction H as [| t rest kids sibs Hn _ IHk _ IHs | t g0 c rest kids sibs Hn Hc _ IHk _ IHs]; intros W.
  - reflexivity.
  - inversion W as [|? ? Wt Wr]; subst. apply wfw_unfold in Wt. destruct Wt as (_ & _ & Wk).
    change (stream_walk_list (t :: rest)) with (stream_walk t ++ stream_walk_list rest).
    rewrite stream_walk_unfold, Hn. change (0 =? -1) with false. cbv iota.
    cbn [flat_map walk_tokens app]. rewrite walk_go, (IHs Wr). f_equal. f_equal.
    destruct (tchildren t) as [l|]; [apply IHk, Wk | apply IHk; constructor].
  - inversion W as [|? ? Wt Wr]; subst. apply wfw_unfold in Wt. destruct Wt as (_ & Wc & _).
    apply Forall_app in Wr. destruct Wr as (Wg & Wcr). inversion Wcr as [|? ? Wc' Wr']; subst.
    apply wfw_unfold in Wc'. destruct Wc' as (Wcn & _).
    assert (Fge : Forall (fun x => -1 <= tnesting x) g0).
    { eapply Forall_impl; [|exact Wg]. intros a Wa. apply wfw_unfold in Wa. destruct Wa as (Wa & _). lia. }
    assert (Cn : tnesting c = -1) by (specialize (Hc Fge); lia).
    assert (Ch : match tchildren t with Some l => stream_walk_list l | None => [] end = []).
    { destruct (Wc ltac:(lia)) as [Cc|Cc]; rewrite Cc; reflexivity. }
    change (stream_walk_list (t :: g0 ++ c :: rest)) with (stream_walk t ++ stream_walk_list (g0 ++ c :: rest)).
    rewrite stream_walk_unfold, Hn, Ch. change (1 =? -1) with false. cbv iota.
    rewrite stream_walk_list_app.
    change (stream_walk_list (c :: rest)) with (stream_walk c ++ stream_walk_list rest).
    rewrite (stream_walk_unfold c), Cn. change (-1 =? -1) with true. cbv iota.
    cbn [flat_map walk_tokens app]. rewrite walk_go, (IHk Wg), (IHs Wr'). reflexivity.
Qed.

(* C15: walk() of the built tree follows stream order *)
Theorem tree_walk_stream_order ts n : Forall wfw ts -> build ts = Ok n -> walk_tokens n = stream_walk_list ts.
Proof.
  unfold build. intros W. destruct (build_children (S (tsize_list ts)) ts) as [kids|e|] eqn:B; cbn [bind]; intros H; try discriminate.
  injection H as <-. cbn [walk_tokens]. rewrite walk_go. eapply build_children_walk; eassumption.
Qed.

Lemma childless_wfw t : tnesting t = -1 \/ tnesting t = 0 \/ tnesting t = 1 -> childless t -> wfw t.
Proof.
  intros Hn Hc. apply wfw_unfold. split; [exact Hn|]. split; [intros _; exact Hc|]. destruct Hc as [E|E]; rewrite E; [exact I | constructor].
Qed.

Lemma bal_wfw d ts : bal d ts -> Forall childless ts -> Forall wfw ts.
Proof.
  intros B. induction B as [d | d t rest Hn _ _ IH | d o inn c rest Ho _ _ II Hc _ _ IR]; intros F.
  - constructor.
  - inversion F as [|? ? Ft Fr]; subst. constructor; [apply childless_wfw; [lia | exact Ft] | apply IH, Fr].
  - inversion F as [|? ? Fo Fr]; subst. apply Forall_app in Fr. destruct Fr as (Fi & Fr). inversion Fr as [|? ? Fc Fr']; subst.
    constructor; [apply childless_wfw; [lia | exact Fo]|].
    apply Forall_app. split; [apply II, Fi|]. constructor; [apply childless_wfw; [lia | exact Fc] | apply IR, Fr'].
Qed.

Lemma stream_walk_childless ts : Forall childless ts ->
  stream_walk_list ts = filter (fun t => negb (tnesting t =? -1)) ts.
Proof.
  induction 1 as [|t l Ht _ IH]; [reflexivity|].
  change (stream_walk_list (t :: l)) with (stream_walk t ++ stream_walk_list l). rewrite stream_walk_unfold, IH. cbn [filter].
  destruct (tnesting t =? -1); cbn [negb app]; [reflexivity|]. destruct Ht as [E|E]; rewrite E; reflexivity.
Qed.

Theorem block_parse_tree_walk cfg rf cf (CS : chains_sub cfg) src env st :
  block_parse cfg rf cf src env [] = Ok st ->
  exists n, build (b_tokens st) = Ok n
         /\ walk_tokens n = filter (fun t => negb (tnesting t =? -1)) (b_tokens st).
Proof.
  intros H.
  destruct (block_parse_tree cfg rf cf CS src env st H) as (n & Bn & _). exists n. split; [exact Bn|].
  destruct (block_parse_bal_childless cfg rf cf CS src env st H) as [B CL].
  rewrite <- (stream_walk_childless _ CL). exact (tree_walk_stream_order _ _ (bal_wfw 0 _ B CL) Bn).
Qed.

(* not vacuous: an image-like token with nested children between an open / close pair *)
Definition ex_mk (ty : str) (ns : Z) (ch : option (list token)) : token := Tok ty [] ns [] None 0 ch [] [] [] [] false false.
Definition ex_txt := ex_mk [116] 0 None.
Definition ex_img := ex_mk [105] 0 (Some [ex_txt; ex_mk [105] 0 (Some [ex_txt])]).
Definition ex_ts := [ex_mk [111] 1 None; ex_img; ex_txt; ex_mk [99] (-1) None; ex_txt].

Lemma ex_leaf_wfw ty ns : (ns = -1 \/ ns = 0 \/ ns = 1) -> wfw (ex_mk ty ns None).
Proof. intros H. apply childless_wfw; [exact H | left; reflexivity]. Qed.

Example walk_example :
  Forall wfw ex_ts /\ exists n, build ex_ts = Ok n /\ walk_tokens n = [ex_mk [111] 1 None; ex_img; ex_txt; ex_mk [105] 0 (Some [ex_txt]); ex_txt; ex_txt; ex_txt].
Proof.
  split.
  - assert (T : wfw ex_txt) by (apply ex_leaf_wfw; lia).
    assert (I1 : wfw (ex_mk [105] 0 (Some [ex_txt]))).
    { apply wfw_unfold. cbn [ex_mk tnesting tchildren]. split; [lia|]. split; [intros N; exfalso; apply N; reflexivity|]. constructor; [exact T | constructor]. }
    assert (I2 : wfw ex_img).
    { apply wfw_unfold. cbn [ex_img ex_mk tnesting tchildren]. split; [lia|]. split; [intros N; exfalso; apply N; reflexivity|].
      constructor; [exact T|]. constructor; [exact I1 | constructor]. }
    unfold ex_ts. constructor; [apply ex_leaf_wfw; lia|]. constructor; [exact I2|]. constructor; [exact T|].
    constructor; [apply ex_leaf_wfw; lia|]. constructor; [exact T | constructor].
  - eexists. split; [vm_compute; reflexivity | vm_compute; reflexivity].
Qed.
