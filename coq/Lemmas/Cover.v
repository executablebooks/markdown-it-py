(* C03, coverage at the level of the line loop: what ParserBlock.parse appends is a sequence of segments, one per
   successful rule call, over line ranges [a, b) that increase, do not overlap, contain all the maps of their tokens -
   and the lines BETWEEN them, before the first and after the last, are all blank: no non-blank line of the input is
   skipped by the line loop; every one lies in the range of lines consumed by the rule call that produced a segment
   (for a reference definition: the empty segment of the lines of the definition). *)
From RecordUpdate Require Import RecordUpdate.
From MD Require Import Base.Py Model.Token Model.StateBlock Model.Block Lemmas.Phases Lemmas.BlockWF
     Lemmas.MapLemmas Lemmas.ScanLemmas Lemmas.MapWhole Lemmas.MapOrder Lemmas.CtxRestore Lemmas.NoRaise.
From Coq Require Import ZifyBool.

(* a line that skipEmptyLines steps over *)
Definition blank (st : bstate) (l : Z) : Prop := is_empty st l <> Ok false.

Lemma skip_empty_blank : forall fuel st a l, a <= l < skip_empty_lines fuel st a -> blank st l.
Proof.
  induction fuel as [|f IH]; intros st a l H; cbn [skip_empty_lines] in H; [lia|].
  destruct (negb (a <? b_lineMax st)); [lia|].
  destruct (is_empty st a) as [[|]|?|] eqn:E; try lia;
    (destruct (Z.eq_dec l a) as [->|NE]; [unfold blank; rewrite E; discriminate | apply (IH st (a + 1)); lia]).
Qed.

Lemma blank_tabs st st' l : tabs_eq st st' -> (blank st' l <-> blank st l).
Proof. intros T. unfold blank. rewrite (is_empty_stb st st' l T). tauto. Qed.

Inductive cseg (B : Z -> Prop) : Z -> Z -> list token -> Prop :=
| cseg_nil lo hi : lo <= hi -> (forall l, lo <= l < hi -> B l) -> cseg B lo hi []
| cseg_cons lo hi a b seg rest : lo <= a -> a < b -> (forall l, lo <= l < a -> B l) -> ~ B a -> Forall (map_in a b) seg ->
    cseg B b hi rest -> cseg B lo hi (seg ++ rest).

Lemma cseg_lo (B : Z -> Prop) lo lo' hi s : lo' <= lo -> (forall l, lo' <= l < lo -> B l) -> cseg B lo hi s -> cseg B lo' hi s.
Proof.
  intros L G H. destruct H as [lo hi H0 H1 | lo hi a b seg rest H1 H2 H3 HN H4 H5].
  - apply cseg_nil; [lia|]. intros l Hl. destruct (Z_lt_ge_dec l lo); [apply G; lia | apply H1; lia].
  - apply (cseg_cons B lo' hi a b); [lia | exact H2 | | exact HN | exact H4 | exact H5].
    intros l Hl. destruct (Z_lt_ge_dec l lo); [apply G; lia | apply H3; lia].
Qed.

Lemma cseg_impl (B B' : Z -> Prop) lo hi s : (forall l, B l <-> B' l) -> cseg B lo hi s -> cseg B' lo hi s.
Proof.
  intros I H. induction H as [lo hi H0 H1 | lo hi a b seg rest H1 H2 H3 HN H4 H5 IH].
  - apply cseg_nil; [exact H0 | intros l Hl; apply I, H1, Hl].
  - apply (cseg_cons B' lo hi a b); [exact H1 | exact H2 | intros l Hl; apply I, H3, Hl | intros X; apply HN, I, X | exact H4 | exact IH].
Qed.

Lemma cseg_oseg (B : Z -> Prop) lo hi s : cseg B lo hi s -> oseg lo hi s.
Proof. induction 1; [apply oseg_nil; assumption | eapply oseg_cons; eassumption]. Qed.

Lemma cseg_covers (B : Z -> Prop) lo hi s : cseg B lo hi s -> forall l, lo <= l < hi -> B l \/ exists a b, a <= l < b /\ lo <= a /\ b <= hi.
Proof.
  induction 1 as [lo hi H0 H1 | lo hi a b seg rest H1 H2 H3 HN H4 H5 IH]; intros l Hl; [left; apply H1; exact Hl|].
  assert (BH : b <= hi) by (clear - H5; induction H5; lia).
  destruct (Z_lt_ge_dec l a); [left; apply H3; lia|].
  destruct (Z_lt_ge_dec l b); [right; exists a, b; lia|].
  destruct (IH l ltac:(lia)) as [Bl|(a' & b' & X & Y & Z0)]; [left; exact Bl | right; exists a', b'; lia].
Qed.

(* true of fresh tables, and the line loop at the top level always sees the tables restored *)
Definition SN (st : bstate) : Prop := forall l sc, tb (b_sCount st) l = Ok sc -> 0 <= sc.
Lemma SN_tabs st st' : tabs_eq st st' -> SN st -> SN st'.
Proof. intros (_ & _ & _ & _ & A5 & _) H l sc E. rewrite A5 in E. exact (H l sc E). Qed.

Section Loop.
Context (cfg : bcfg) (rf cf : str -> str).
Context (TNO : term_names_ok cfg) (PA : mem_str nm_paragraph (c_rules cfg) = true).

Lemma tok_loop_cover N d : forall fuel st line el hel,
  RI N st -> TI st -> CI st -> 0 <= line -> line <= b_lineMax st -> el <= b_lineMax st -> (line < el \/ b_line st = line) ->
  b_level st < c_maxNesting cfg -> b_blkIndent st = 0 -> SN st ->
  forall st', tok_loop cfg rf cf fuel (tokenize cfg rf cf d) st line el hel = Ok st' ->
  exists seg, b_tokens st' = b_tokens st ++ seg /\ cseg (blank st) line (b_line st') seg /\ el <= b_line st'.
Proof.
  pose proof (term_names_silent cfg TNO) as ST.
  pose proof (tokenize_rec_n cfg rf cf N TNO PA d) as RN.
  pose proof (tokenize_rec_c cfg rf cf ST PA d) as RC.
  induction fuel as [|f IH]; intros st line el hel R HT HC L0 L1 L2 LB LV BI HSN st' H; [discriminate H|].
  rewrite tok_loop_round in H.
  assert (LMN : b_lineMax st <= N) by (destruct R as [LM _]; lia).
  destruct (negb (line <? el)) eqn:NE.
  { rfinish H. exists []. rewrite app_nil_r. split; [reflexivity|]. assert (b_line st' = line) by (destruct LB; [lia | assumption]).
    split; [apply cseg_nil; [lia | intros l Hl; lia] | lia]. }
  rbind H as [l go] eqn:HD.
  destruct (tok_head_run cfg _ _ _ _ _ HD ltac:(lia) L1 L2) as (B & [EQ|[_ X]] & G); [|lia].
  assert (GAP : forall k, line <= k < l -> blank st k)
    by (intros k Hk; apply (skip_empty_blank (S (Z.to_nat (b_lineMax st))) st line); rewrite <- EQ; exact Hk).
  destruct go.
  2:{ (* below the nesting limit, with indent 0 and no negative sCount, the loop stops at el only *)
      destruct G as [_ [EL|(sc & Es & SB)]]; [|pose proof (HSN l sc Es); lia].
      rfinish H. exists []. rewrite app_nil_r. split; [reflexivity|]. cbn [b_line st_line set].
      split; [apply cseg_nil; [lia | exact GAP] | exact EL]. }
  destruct G as (EL & _).
  assert (IE : is_empty st l = Ok false) by (rewrite EQ; apply skip_empty_nonempty; [lia | rewrite <- EQ; lia]).
  assert (NB1 : ~ blank st l) by (intros X; exact (X IE)).
  assert (T1 : tabs_eq st (st_line st l)) by repeat split.
  assert (P1 : pre2 N (st_line st l) l el) by (split; [exact R | cbn; lia]).
  destruct (try_rules_r cfg rf cf N _ RN RC TNO (c_rules cfg) (st_line st l) l el P1 HT HC eq_refl
              (nonempty_tabs st _ l T1 (is_empty_false_nonempty st l IE))) as [_ TP0].
  rbind H as st2 eqn:TR. specialize (TP0 st2 eq_refl).
  destruct (proj2 (tok_round_m cfg rf cf _ RC ST PA _ _ _ _ HD ltac:(lia) L0 L1 L2 HT) _ TR) as ((A1 & A2 & (sg & ES & FS) & _) & _).
  cbn [b_lineMax b_tokens st_line set] in A1, A2, ES.
  pose proof (try_rules_ext cfg rf cf _ (tokenize_ok cfg rf cf d) _ _ _ _ _ TR) as [LVL _].
  pose proof (try_rules_x cfg rf cf _ (tokenize_x cfg rf cf d) _ _ _ _ _ TR) as [BIX _].
  rbind H as [l' hel'] eqn:NX.
  (* the loop goes on with st2's tokens and the tables of st, behind the rule's lines or one past a blank line there *)
  match type of H with tok_loop _ _ _ _ _ ?s _ _ _ = _ => assert (TS : tabs_eq st s) by exact TP0 end.
  assert (GAP2 : b_line st2 <= l' <= b_lineMax st /\ forall k, b_line st2 <= k < l' -> blank st k).
  { destruct (tok_next_inv _ _ _ _ _ NX) as [->|(-> & X & E2)]; (split; [lia|]); intros k Hk; [lia|].
    assert (k = b_line st2) by lia. subst k. apply (blank_tabs st st2 _ TP0). unfold blank. rewrite E2. discriminate. }
  destruct GAP2 as [Bl GAP2].
  apply (IH _ l' el hel' (tabs_eq_RI _ _ _ TS R) (tabs_eq_TI _ _ TS HT) (tabs_eq_CI _ _ TS HC)) in H;
    [|lia|rewrite (tabs_eq_lineMax _ _ TS); lia|rewrite (tabs_eq_lineMax _ _ TS); lia|right; reflexivity
     |exact (eq_ind_r (fun x => x < _) LV LVL)|exact (eq_trans BIX BI)|exact (SN_tabs _ _ TS HSN)].
  destruct H as (seg & ET' & OS & EN). change (b_tokens st' = b_tokens st2 ++ seg) in ET'.
  exists (sg ++ seg). split; [rewrite ET', ES, app_assoc; reflexivity|]. split; [|exact EN].
  apply (cseg_cons _ line _ l (b_line st2)); [lia | lia | exact GAP | exact NB1 | exact FS|].
  apply (cseg_lo _ l'); [lia | exact GAP2|]. eapply cseg_impl; [|exact OS]. intros k. apply (blank_tabs st _ k TS).
Qed.

End Loop.

Lemma state_init_SN src env toks : SN (state_init src env toks).
Proof.
  destruct (state_init_rows src (fun _ _ _ => True) (fun _ => I) (fun _ _ _ _ _ _ _ _ => I) env toks) as (L & _ & _ & _ & Hs & _ & _ & _ & F & _).
  unfold SN. rewrite Hs. intros l sc E.
  destruct (tb_map _ _ _ _ E) as (w & Nw & ->). rewrite Forall_forall in F. apply (F w (nth_error_In _ _ Nw)).
Qed.

(* the whole block parser: ordered segments, and every line between them blank *)
Theorem block_parse_cover cfg rf cf src env toks st :
  term_names_ok cfg -> mem_str nm_paragraph (c_rules cfg) = true -> 0 < c_maxNesting cfg ->
  block_parse cfg rf cf src env toks = Ok st ->
  let s0 := state_init src env toks in
  exists seg, b_tokens st = toks ++ seg /\ cseg (blank s0) 0 (b_lineMax s0) seg.
Proof.
  intros TNO PA MN H. cbv zeta. apply block_parse_loop in H. destruct H as (fuel & d & H).
  pose proof (state_init_RI src env toks) as R. pose proof (state_init_TI src env toks) as HT.
  set (st0 := state_init src env toks) in *.
  assert (B0 : b_line st0 = 0) by reflexivity.
  assert (LM : 0 <= b_lineMax st0) by (destruct R as [LM _]; lia).
  destruct (tok_loop_cover cfg rf cf TNO PA (b_lineMax st0) d _ st0 0 (b_lineMax st0) false
              R HT (state_init_CI src env toks) ltac:(lia) ltac:(lia) ltac:(lia) (or_intror B0) ltac:(exact MN) eq_refl (state_init_SN src env toks) st H) as (seg & ET & CS & EN).
  exists seg. split; [exact ET|].
  pose proof (tok_loop_m cfg rf cf _ (tokenize_rec_c cfg rf cf (term_names_silent cfg TNO) PA _) (term_names_silent cfg TNO) PA _ _ _ _ _ _ H
                ltac:(lia) ltac:(lia) ltac:(lia) HT (or_intror B0)) as (_ & _ & _ & BND & _).
  assert (EQ : b_line st = b_lineMax st0) by lia. rewrite <- EQ. exact CS.
Qed.
