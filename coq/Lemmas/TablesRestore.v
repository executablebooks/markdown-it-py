(* C07: indentation bookkeeping does not leak.  The five line tables (bMarks, eMarks, tShift, sCount,
   bsCount), the source and lineMax are rewritten in place by the block quote and list rules while
   they run the nested block loop; every call of the block loop - at any depth, on any well-formed
   state - returns with all of them exactly as it found them, and so does the whole block parser.
   (Consequences of the invariants of NoRaise.v.) *)
From MD Require Import Base.Py Model.StateBlock Model.Block Lemmas.MapWhole Lemmas.NoRaise.

Theorem tokenize_tables cfg rf cf N d st a b st' :
  term_names_ok cfg -> mem_str nm_paragraph (c_rules cfg) = true ->
  RI N st -> TI st -> CI st -> 0 <= a -> a < b -> b <= b_lineMax st ->
  tokenize cfg rf cf d st a b = Ok st' -> tabs_eq st st' /\ a <= b_line st' <= b_lineMax st.
Proof.
  intros TNO PA R HT HC A0 AB BL H.
  exact (proj2 (tokenize_rec_n cfg rf cf N TNO PA d st a b R HT HC A0 AB BL) st' H).
Qed.

Theorem block_parse_tables cfg rf cf src env toks st :
  term_names_ok cfg -> mem_str nm_paragraph (c_rules cfg) = true ->
  block_parse cfg rf cf src env toks = Ok st -> tabs_eq (state_init src env toks) st.
Proof.
  intros TNO PA H. unfold block_parse in H.
  destruct src as [|c src0]; [injection H as <-; apply tabs_eq_refl|].
  set (st0 := state_init (c :: src0) env toks) in *.
  pose proof (state_init_RI (c :: src0) env toks) as R. pose proof (state_init_TI (c :: src0) env toks) as HT.
  pose proof (state_init_CI (c :: src0) env toks) as HC. fold st0 in R, HT, HC.
  assert (B0 : b_line st0 = 0) by reflexivity. rewrite B0 in H.
  destruct (Z.eq_dec (b_lineMax st0) 0) as [Z0|NZ].
  - (* a source of blanks only: the scan never reaches the push (the blank branch of scan_step comes first), so there
       is no line but the sentinel and the loop does not start *)
    rewrite Z0 in H. cbn [tokenize Z.to_nat Z.sub tok_loop] in H. change (negb (0 <? 0)) with true in H. cbv iota in H.
    injection H as <-. apply tabs_eq_refl.
  - assert (LM : 0 <= b_lineMax st0) by (destruct R as [LM _]; lia).
    exact (proj1 (tokenize_tables cfg rf cf (b_lineMax st0) _ st0 0 (b_lineMax st0) st TNO PA R HT HC ltac:(lia) ltac:(lia) ltac:(lia) H)).
Qed.
