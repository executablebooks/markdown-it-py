(* C01, component facts: entity code points are valid for chr(), digit strings are non-negative,
   the renderer returns on every stream without a non-string class attribute. *)
From MD Require Import Base.Py Base.Str Model.Token Model.Utils Model.Render Lemmas.RenderLemmas.
From Coq Require Import ZifyBool.

Lemma int_of_digits_nonneg s : Forall (fun c => 48 <= c) s -> 0 <= int_of_digits s.
Proof.
  unfold int_of_digits. intros H.
  assert (G : forall acc, 0 <= acc -> 0 <= fold_left (fun a c => a * 10 + (c - 48)) s acc).
  { induction H as [|c l Hc Hl IH]; intros acc Ha; [exact Ha|]. cbn [fold_left]. apply IH. lia. }
  apply G. lia.
Qed.

Lemma hex_val_nonneg c : 0 <= hex_val c.
Proof.
  unfold hex_val. destruct (is_digit c) eqn:E1; [unfold is_digit in E1; lia|].
  destruct ((97 <=? c) && (c <=? 102)) eqn:E2; [lia|].
  destruct ((65 <=? c) && (c <=? 70)) eqn:E3; lia.
Qed.

Lemma int_of_hex_nonneg s : 0 <= int_of_hex s.
Proof.
  unfold int_of_hex. apply (fold_left_inv (fun a => 0 <= a)); [|lia].
  intros a c Ha. pose proof (hex_val_nonneg c). lia.
Qed.

Theorem entity_chr_safe c :
  0 <= c -> is_valid_entity_code c = true -> c <= 1114111 /\ ~ (55296 <= c <= 57343).
Proof.
  unfold is_valid_entity_code. intros P H.
  destruct ((55296 <=? c) && (c <=? 57343)) eqn:E1; [discriminate|].
  destruct ((64976 <=? c) && (c <=? 65007)) eqn:E2; [discriminate|].
  destruct ((Z.land c 65535 =? 65535) || (Z.land c 65535 =? 65534)) eqn:E3; [discriminate|].
  destruct ((0 <=? c) && (c <=? 8)) eqn:E4; [discriminate|].
  destruct (c =? 11) eqn:E5; [discriminate|].
  destruct ((14 <=? c) && (c <=? 31)) eqn:E6; [discriminate|].
  destruct ((127 <=? c) && (c <=? 159)) eqn:E7; [discriminate|].
  split; lia.
Qed.

Definition class_ok (t : token) : Prop :=
  match alookup s_class (tattrs t) with Some (AInt _) => False | _ => True end.

Lemma render_fence_total o t : class_ok t -> exists cs, render_fence o t = Ok cs.
Proof.
  intros H. unfold render_fence, render_fence_with, render_fence_core.
  destruct (match fence_highlighted o t (lang_name (fence_info t)) (lang_attrs (fence_info t)) with
            | [CRaw h] => starts_with s_pre h | _ => false end); [eexists; reflexivity|].
  destruct (fence_info t) as [|i0 info]; [eexists; reflexivity|].
  unfold attr_join, class_ok in *. cbn [tattrs set_attrs new_token].
  destruct (alookup s_class (tattrs t)) as [[v|z]|]; try contradiction; cbn [bind]; eexists; reflexivity.
Qed.

Lemma render_one_total o p t n : (str_eqb (ttype t) s_fence = true -> class_ok t) -> exists r, render_one o p t n = Ok r.
Proof.
  intros H. rewrite render_one_kind. pose proof (kind_of_ty (ttype t)) as K.
  destruct (kind_of (ttype t)); cbn [render_kind]; try (eexists; reflexivity).
  destruct (render_fence_total o t (H ltac:(rewrite K; reflexivity))) as [cs E]. rewrite E. eexists; reflexivity.
Qed.

Lemma render_top_total o p t n :
  (str_eqb (ttype t) s_fence = true -> class_ok t)
  /\ (forall ch, tchildren t = Some ch -> str_eqb (ttype t) s_inline = true ->
        Forall (fun c => str_eqb (ttype c) s_fence = true -> class_ok c) ch) ->
  exists r, render_top o p t n = Ok r.
Proof.
  intros [Ht Hc]. destruct (str_eqb (ttype t) s_inline) eqn:EI.
  - rewrite render_top_inline by exact EI.
    destruct (walk_total _ _ (fun p t n => render_one_total o p t n) (kids t) None) as [[cs ch'] E].
    { unfold kids. destruct (tchildren t) as [ch|]; [exact (Hc ch eq_refl eq_refl) | constructor]. }
    rewrite E. eexists; reflexivity.
  - rewrite render_top_other by exact EI. apply render_one_total, Ht.
Qed.

Theorem render_total_fence o l p :
  Forall (fun t => (str_eqb (ttype t) s_fence = true -> class_ok t)
                   /\ forall ch, tchildren t = Some ch -> str_eqb (ttype t) s_inline = true ->
                        Forall (fun c => str_eqb (ttype c) s_fence = true -> class_ok c) ch) l ->
  exists r, render_list o p l = Ok r.
Proof. intros H. rewrite render_list_walk. exact (walk_total _ _ (render_top_total o) l p H). Qed.

Definition class_ok_top (t : token) : Prop :=
  class_ok t /\ forall ch, tchildren t = Some ch -> Forall class_ok ch.

Theorem render_total o : forall l p, Forall class_ok_top l -> exists r, render_list o p l = Ok r.
Proof.
  intros l p H. apply render_total_fence. eapply Forall_impl; [|exact H].
  intros t [Ht Hc]. split; [exact (fun _ => Ht)|]. intros ch E _.
  eapply Forall_impl; [|exact (Hc ch E)]. exact (fun c Hc' _ => Hc').
Qed.
