(* C03: sibling order.  What one call of the block line loop (ParserBlock.tokenize, at the top level
   or nested in a block quote / list item) appends is a sequence of segments, one per successful
   rule call, whose line ranges [a, b) are non-empty, increase and do not overlap; every map of a
   segment lies inside its range.  So no block starts before the end of the block before it. *)
From MD Require Import Base.Py Model.Token Model.StateBlock Model.Block Lemmas.MapLemmas Lemmas.ScanLemmas
     Lemmas.MapWhole.
From Coq Require Import ZifyBool.

Inductive oseg : Z -> Z -> list token -> Prop :=
| oseg_nil lo hi : lo <= hi -> oseg lo hi []
| oseg_cons lo hi a b seg rest : lo <= a -> a < b -> Forall (map_in a b) seg -> oseg b hi rest -> oseg lo hi (seg ++ rest).

Lemma oseg_le lo hi s : oseg lo hi s -> lo <= hi.
Proof. induction 1; lia. Qed.
Lemma oseg_lo lo lo' hi s : lo' <= lo -> oseg lo hi s -> oseg lo' hi s.
Proof. intros L H. destruct H as [lo hi H0 | lo hi a b seg rest H1 H2 H3 H4]; [apply oseg_nil; lia | apply (oseg_cons lo' hi a b); [lia | exact H2 | exact H3 | exact H4]]. Qed.
Lemma oseg_in lo hi s : oseg lo hi s -> Forall (map_in lo hi) s.
Proof.
  induction 1 as [|lo hi a b seg rest L1 L2 F O IH]; [constructor|]. pose proof (oseg_le _ _ _ O).
  apply Forall_app. split; (eapply Forall_impl; [|eassumption]); intros t Ht; eapply map_in_weaken; try exact Ht; lia.
Qed.

Section Loop.
Context (cfg : bcfg) (rf cf : str -> str).

Lemma tok_loop_oseg rec (R : rec_c rec) (ST : silent_terms cfg) (PA : mem_str nm_paragraph (c_rules cfg) = true) :
  forall fuel st line el hel st',
  tok_loop cfg rf cf fuel rec st line el hel = Ok st' ->
  0 <= line -> line <= b_lineMax st -> el <= b_lineMax st -> TI st -> (line < el \/ b_line st = line) ->
  exists seg, b_tokens st' = b_tokens st ++ seg /\ oseg line (b_line st') seg.
Proof.
  intros fuel st line el hel st' H L0 L1 L2 HT LB.
  apply (tok_loop_segs cfg rf cf oseg oseg_nil oseg_cons oseg_lo rec R ST PA) in H; try assumption.
  destruct H as (_ & _ & _ & _ & S & _). exact S.
Qed.

Theorem tokenize_ordered (ST : silent_terms cfg) (PA : mem_str nm_paragraph (c_rules cfg) = true) d st a b st' :
  tokenize cfg rf cf d st a b = Ok st' -> 0 <= a -> a < b -> b <= b_lineMax st -> TI st ->
  exists seg, b_tokens st' = b_tokens st ++ seg /\ oseg a (b_line st') seg.
Proof.
  destruct d as [|d]; intros H A0 AB BL HT; [discriminate H|]. cbn [tokenize] in H.
  eapply (tok_loop_oseg _ (tokenize_rec_c cfg rf cf ST PA d) ST PA); try eassumption; lia.
Qed.

Theorem block_parse_ordered (ST : silent_terms cfg) (PA : mem_str nm_paragraph (c_rules cfg) = true) src env toks st' :
  block_parse cfg rf cf src env toks = Ok st' ->
  exists seg, b_tokens st' = toks ++ seg /\ oseg 0 (b_line st') seg.
Proof.
  intros H. apply block_parse_loop in H. destruct H as (fuel & d & H).
  destruct (state_init_tables src env toks) as (_ & _ & _ & _ & _ & LM & _). cbv zeta in LM.
  apply (tok_loop_oseg _ (tokenize_rec_c cfg rf cf ST PA d) ST PA) in H; [exact H|lia|lia|lia|apply state_init_TI|right; reflexivity].
Qed.

End Loop.
