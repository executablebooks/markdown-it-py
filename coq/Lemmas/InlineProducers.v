(* C10, inline half: every inline token kind needs a producer.  The pairs of the inline vocabulary
   of InlineKinds.v, each with a guard: the kind can occur only if one of the rules that produce it
   is in the chain (tokenizer rules) or in the post-processing chain (emphasis / strikethrough pairs).
   The guards are those the segment grammar of InlineWalk carries. *)
From MD Require Import Base.Py Model.Token Model.Render Model.Core Model.Inline Lemmas.InlineWalk.

(* as InlineKinds.is0 *)
Definition is0 (ty tag : str) (t : token) : Prop := ttype t = ty /\ ttag t = tag.

Section IKinds.
Context (cfg : icfg).
(* guards, one per kind: text_special, softbreak, hardbreak, code_inline, link_open/close, image, s_open/close, em/strong *)
Context (K_ts K_sb K_hb K_code K_link K_img K_s K_em : Prop).

Definition V (t : token) : Prop :=
  is0 s_text [] t \/ (K_ts /\ is0 s_text_special_ [] t) \/ (K_sb /\ is0 s_softbreak s_br t) \/ (K_hb /\ is0 s_hardbreak s_br t)
  \/ (K_code /\ is0 s_code_inline s_code t) \/ (K_link /\ is0 s_link_open s_a t) \/ (K_link /\ is0 s_link_close s_a t)
  \/ (K_img /\ is0 s_image [105; 109; 103] t)
  \/ (ic_html cfg = true /\ is0 s_html_inline [] t)
  \/ (K_s /\ is0 s_s_open s_s t) \/ (K_s /\ is0 s_s_close s_s t)
  \/ (K_em /\ is0 [101; 109; 95; 111; 112; 101; 110] [101; 109] t) \/ (K_em /\ is0 [101; 109; 95; 99; 108; 111; 115; 101] [101; 109] t)
  \/ (K_em /\ is0 [115; 116; 114; 111; 110; 103; 95; 111; 112; 101; 110] [115; 116; 114; 111; 110; 103] t)
  \/ (K_em /\ is0 [115; 116; 114; 111; 110; 103; 95; 99; 108; 111; 115; 101] [115; 116; 114; 111; 110; 103] t).

Lemma tt_V t t' : ttype t' = ttype t -> ttag t' = ttag t -> V t -> V t'.
Proof. intros A B H. unfold V, is0 in *. rewrite A, B. exact H. Qed.

Lemma V_retag ty tag n mk t : V (new_token ty tag 0) -> V (retag ty tag n mk t).
Proof. intros H. eapply tt_V; [| |exact H]; reflexivity. Qed.

End IKinds.

Section Producers.
Context (cfg : icfg) (rf cf lt : str -> str).

Definition has (n : str) : Prop := In n (ic_rules cfg).
Definition has2 (n : str) : Prop := In n (ic_rules2 cfg).

Definition Vp : token -> Prop :=
  V cfg (has n_escape \/ has n_entity) (has n_newline) (has n_newline \/ has n_escape) (has n_backticks)
        (has n_link \/ has n_autolink) (has n_image) (has2 n_strikethrough) (has2 n_emphasis).

Theorem inline_kinds_need_producer src env tokens r :
  Forall Vp tokens -> inline_parse cfg rf cf lt src env tokens = Ok r -> Forall Vp r.
Proof.
  apply (inline_parse_Forall cfg rf (fun _ => True) I (fun _ _ => I) Vp).
  - intros t t' A B _. exact (tt_V _ _ _ _ _ _ _ _ _ t t' A B).
  - intros ty tag n mk t K _. unfold Vp, V, is0. cbn [retag set_content set_markup ttype ttag]. clear t n mk.
    (* the pairs are the last six kinds of the vocabulary *)
    do 9 right. destruct K; tauto.
  - intros t [(ty & tag & K & A & B & _) | (EN & h & title & _ & A & B & _)]; unfold Vp, V, is0; rewrite A, B; clear A B t; [destruct K|]; tauto.
  - intros t (EN & h & title & _ & A & B & _). unfold Vp, V, is0. rewrite A, B. clear A B t. tauto.
  - intros t (EN & A & B & _). unfold Vp, V, is0. rewrite A, B. clear A B t. tauto.
  - intros k r' _. exact I.
Qed.

(* read off: a kind whose producers are all absent does not occur *)
Corollary no_backticks_no_code_inline src env r :
  ~ has n_backticks -> inline_parse cfg rf cf lt src env [] = Ok r -> Forall (fun t => ttype t <> s_code_inline) r.
Proof.
  intros NB H. pose proof (inline_kinds_need_producer src env [] r ltac:(constructor) H) as F.
  eapply Forall_impl; [|exact F]. intros t Ht E. unfold Vp, V, is0 in Ht.
  repeat (destruct Ht as [Ht|Ht]); try (destruct Ht as [A B]); try (destruct B);
    try (rewrite E in *; discriminate); try contradiction.
Qed.
End Producers.
