(* C02: a syntax tree can be built.  On a balanced stream (Lemmas/BlockWF.v) whose tokens carry no
   children yet - what the block parser returns - SyntaxTreeNode's builder finds the closing token
   of every opening one and returns a tree (which flattens back to the stream: tree_roundtrip, Lemmas/TreeLemmas.v). *)
From MD Require Import Base.Py Model.Token Model.StateBlock Model.Tree Model.Block Lemmas.TreeLemmas Lemmas.BlockWF
     Lemmas.BlockKinds.

Lemma take_group_bal d inner : bal d inner -> forall k acc l, 0 < k ->
  take_group (inner ++ l) k acc = take_group l k (rev inner ++ acc).
Proof.
  induction 1 as [d | d t rest Hn _ _ IH | d o inn c rest Ho _ _ II Hc _ _ IR]; intros k acc l Hk.
  - reflexivity.
  - cbn [app take_group]. assert (E : (k =? 0) = false) by lia. rewrite E. rewrite Hn, Z.add_0_r.
    rewrite IH by exact Hk. cbn [rev]. rewrite <- app_assoc. reflexivity.
  - cbn [app take_group]. assert (E : (k =? 0) = false) by lia. rewrite E. rewrite Ho.
    rewrite <- app_assoc. rewrite II by lia. cbn [app take_group].
    assert (E1 : (k + 1 =? 0) = false) by lia. rewrite E1. rewrite Hc. replace (k + 1 + -1) with k by lia.
    rewrite IR by exact Hk. cbn [rev]. rewrite rev_app_distr. cbn [rev app]. rewrite <- !app_assoc. cbn [app]. reflexivity.
Qed.

Definition childless (t : token) : Prop := tchildren t = None \/ tchildren t = Some [].

(* one unit of fuel per token is enough here (no token has children to descend into); [build] supplies
   S (tsize_list ts), which is at least that (tsize_list_ge) *)
Lemma build_children_bal : forall fuel d ts, bal d ts -> Forall childless ts -> (length ts < fuel)%nat ->
  exists kids, build_children fuel ts = Ok kids.
Proof.
  induction fuel as [|fuel IH]; intros d ts B F HF; [lia|]. cbn [build_children].
  destruct B as [d | d t rest Hn _ Br | d o inn c rest Ho _ Bi Hc _ Br].
  - eexists; reflexivity.
  - assert (E : (tnesting t =? 0) = true) by lia. rewrite E.
    inversion F as [|? ? Ft Fr]; subst.
    assert (K : match tchildren t with Some (x :: l) => build_children fuel (x :: l) | _ => Ok [] end = Ok []).
    { destruct Ft as [-> | ->]; reflexivity. }
    rewrite K. cbn [bind]. destruct (IH d rest Br Fr ltac:(cbn in HF; lia)) as [sibs Es]. rewrite Es. cbn [bind]. eexists; reflexivity.
  - assert (E : (tnesting o =? 0) = false) by lia. rewrite E. assert (E1 : (tnesting o =? 1) = true) by lia. rewrite E1. cbn [negb].
    rewrite (take_group_bal _ _ Bi 1 [o] (c :: rest)) by lia. cbn [take_group].
    change (1 =? 0) with false. cbv iota. rewrite Hc. change (1 + -1) with 0. rewrite take_group_0.
    cbn [rev]. rewrite rev_app_distr, rev_involutive. cbn [rev app]. rewrite middle_wrap.
    inversion F as [|? ? Fo Fr]; subst. apply Forall_app in Fr. destruct Fr as [Fi Fc]. inversion Fc as [|? ? _ Frest]; subst.
    cbn [length] in HF. rewrite app_length in HF. cbn [length] in HF.
    destruct (IH (d + 1) inn Bi Fi ltac:(lia)) as [kids Ek]. rewrite Ek. cbn [bind].
    destruct (IH d rest Br Frest ltac:(lia)) as [sibs Es]. rewrite Es. cbn [bind]. eexists; reflexivity.
Qed.

Lemma tsize_list_ge : forall ts, (length ts <= tsize_list ts)%nat.
Proof. induction ts as [|t ts IH]; [cbn; lia|]. unfold tsize_list in *. cbn [fold_right length]. destruct t; cbn [tsize] in *. lia. Qed.

Theorem build_bal d ts : bal d ts -> Forall childless ts -> exists n, build ts = Ok n /\ to_tokens n = ts.
Proof.
  intros B F. unfold build.
  destruct (build_children_bal (S (tsize_list ts)) d ts B F ltac:(pose proof (tsize_list_ge ts); lia)) as [kids E].
  rewrite E. cbn [bind]. eexists. split; [reflexivity|].
  apply tree_roundtrip. unfold build. rewrite E. reflexivity.
Qed.

Lemma block_parse_bal_childless cfg rf cf (CS : chains_sub cfg) src env st :
  block_parse cfg rf cf src env [] = Ok st -> bal 0 (b_tokens st) /\ Forall childless (b_tokens st).
Proof.
  intros H.
  destruct (block_parse_balanced cfg rf cf src env [] st H) as (seg & T & B & _).
  destruct (block_parse_kinds cfg rf cf CS src env [] st H) as (seg' & T' & K).
  cbn [app] in T, T'. rewrite T in T' |- *. subst seg'.
  split; [exact B|]. eapply Forall_impl; [|exact K].
  intros t (n & _ & P). destruct (P_rule_is cfg n t P) as (ty & tag & (_ & _ & Ch & _) & _). exact Ch.
Qed.

Theorem block_parse_tree cfg rf cf (CS : chains_sub cfg) src env st :
  block_parse cfg rf cf src env [] = Ok st -> exists n, build (b_tokens st) = Ok n /\ to_tokens n = b_tokens st.
Proof.
  intros H. destruct (block_parse_bal_childless cfg rf cf CS src env st H) as [B F]. exact (build_bal 0 _ B F).
Qed.
