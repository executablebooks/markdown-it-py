(* C02, stream half: fragments_join recomputes every level as the running depth and leaves no
   two adjacent text tokens; text_join leaves no token of type text_special among the children it returns. *)
From MD Require Import Base.Py Model.Token Model.Render Model.Core Model.Inline.

(* level of each token = depth at that point (after the decrement for closers) *)
Fixpoint levels_ok (ts : list token) (depth : Z) : Prop :=
  match ts with
  | [] => True
  | t :: rest =>
      let d1 := if tnesting t <? 0 then depth - 1 else depth in
      tlevel t = d1 /\ levels_ok rest (if 0 <? tnesting t then d1 + 1 else d1)
  end.

Fixpoint no_adjacent_text (ts : list token) : Prop :=
  match ts with
  | a :: ((b :: _) as rest) => ~ (str_eqb (ttype a) s_text = true /\ str_eqb (ttype b) s_text = true) /\ no_adjacent_text rest
  | _ => True
  end.

Definition text_flat (ts : list token) : Prop :=
  Forall (fun t => str_eqb (ttype t) s_text = true -> tnesting t = 0) ts.

(* (text tokens have nesting 0 in every stream the rules produce: push("text", "", 0)) *)
Lemma fj_levels : forall ts lvl carry, text_flat ts -> levels_ok (fj ts lvl carry) lvl.
Proof.
  induction ts as [|t rest IH]; intros lvl carry H; [exact I|]. cbn [fj].
  inversion H as [|? ? Ht Hr]; subst.
  destruct rest as [|n rest'].
  - cbn [levels_ok fj]. destruct carry; cbn [tnesting set_content set_level tlevel]; split; try reflexivity; exact I.
  - destruct (str_eqb (ttype t) s_text && str_eqb (ttype n) s_text) eqn:E.
    + apply Bool.andb_true_iff in E. destruct E as [Et _]. rewrite (Ht Et).
      change (0 <? 0) with false. change (if false then lvl - 1 else lvl) with lvl. cbn iota.
      apply IH. exact Hr.
    + cbn [levels_ok]. split.
      * destruct carry; reflexivity.
      * destruct carry; cbn [tnesting set_content set_level]; apply IH; exact Hr.
Qed.

(* the induction also has to say when the output can begin with a text token: only when the input does *)
Lemma fj_no_adjacent : forall ts lvl carry, no_adjacent_text (fj ts lvl carry).
Proof.
  assert (G : forall ts lvl carry,
             no_adjacent_text (fj ts lvl carry) /\
             (forall x out, fj ts lvl carry = x :: out -> str_eqb (ttype x) s_text = true ->
                            exists t ts', ts = t :: ts' /\ str_eqb (ttype t) s_text = true)).
  { induction ts as [|t rest IH]; intros lvl carry; [split; [exact I | intros; discriminate]|].
    cbn [fj]. destruct rest as [|n rest'].
    - cbn [fj]. split; [exact I|]. intros x out H Hx. injection H as <- <-.
      exists t, []. split; [reflexivity|]. destruct carry; exact Hx.
    - destruct (str_eqb (ttype t) s_text && str_eqb (ttype n) s_text) eqn:E.
      + apply Bool.andb_true_iff in E. destruct E as [Et En].
        destruct (IH (if 0 <? tnesting t then (if tnesting t <? 0 then lvl - 1 else lvl) + 1 else (if tnesting t <? 0 then lvl - 1 else lvl))
                     (Some (tcontent (set_level (match carry with Some c => set_content t (c ++ tcontent t) | None => t end)
                                                (if tnesting t <? 0 then lvl - 1 else lvl))))) as [A B].
        split; [exact A|]. intros x out H Hx. exists t, (n :: rest'). split; [reflexivity | exact Et].
      + set (L2 := if 0 <? tnesting t then (if tnesting t <? 0 then lvl - 1 else lvl) + 1 else (if tnesting t <? 0 then lvl - 1 else lvl)).
        destruct (IH L2 None) as [A B]. split.
        * remember (fj (n :: rest') L2 None) as out eqn:EO. destruct out as [|y out']; [exact I|].
          cbn [no_adjacent_text]. split; [|exact A].
          intros [Hx Hy]. destruct (B y out' eq_refl Hy) as [t2 [ts2 [E2 Ht2]]]. injection E2 as <- <-.
          assert (Ht : str_eqb (ttype t) s_text = true) by (destruct carry; exact Hx).
          rewrite Ht, Ht2 in E. discriminate.
        * intros x out H Hx. injection H as <- <-. exists t, (n :: rest'). split; [reflexivity|]. destruct carry; exact Hx. }
  intros ts lvl carry. apply G.
Qed.

Theorem fragments_join_wf ts : text_flat ts -> levels_ok (fj ts 0 None) 0 /\ no_adjacent_text (fj ts 0 None).
Proof. intros H. split; [apply fj_levels, H | apply fj_no_adjacent]. Qed.

Fixpoint no_special (t : token) : Prop :=
  str_eqb (ttype t) s_text_special = false /\
  match tchildren t with
  | Some l => if str_eqb (ttype t) s_image
              then (fix go (l : list token) : Prop := match l with [] => True | x :: l' => no_special x /\ go l' end) l
              else True
  | None => True
  end.

Lemma join_push_types acc t :
  Forall (fun x => str_eqb (ttype x) s_text_special = false) acc -> str_eqb (ttype t) s_text_special = false ->
  Forall (fun x => str_eqb (ttype x) s_text_special = false) (join_push acc t).
Proof.
  intros HA Ht. unfold join_push. destruct acc as [|p acc']; [constructor; [exact Ht | constructor]|].
  inversion HA; subst. destruct (str_eqb (ttype t) s_text && str_eqb (ttype p) s_text).
  - constructor; assumption.
  - constructor; [exact Ht | exact HA].
Qed.

Lemma join_tok_type t : str_eqb (ttype (join_tok t)) s_text_special = false.
Proof.
  destruct t as [ty tag nst ats mp lv ch co mk inf me bl hd]. cbn [join_tok ttype].
  destruct (str_eqb ty s_text_special) eqn:E; [reflexivity | exact E].
Qed.

Theorem text_join_no_special l :
  Forall (fun x => str_eqb (ttype x) s_text_special = false) (join_children l).
Proof.
  unfold join_children. apply Forall_rev. apply fold_left_inv; [|constructor].
  intros acc y H. apply join_push_types; [exact H | apply join_tok_type].
Qed.

