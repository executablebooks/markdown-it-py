(* C01, block parser: the fuel of the model never runs out.  The six places where the block model
   can answer OutOfFuel (the paragraph-like continuation scan, the block quote line loop, the list
   item loop, the table body loop, the line loop of tokenize and the container depth of tokenize)
   are given fuels computed from the line range and from maxNesting; this file proves that those
   fuels always suffice (the stubs no_rec and no_term, which answer OutOfFuel too, stand only where a
   silent call never reaches them).  Together with Lemmas/NoRaise.v: ParserBlock.parse returns a
   state, for every source and every configuration.
   The loops over lines spend one unit per line.  For the depth the measure is depth fuel plus
   nesting level: a container rule calls the nested tokenize with one unit of depth less on a state
   whose level is higher - by 1 behind blockquote_open, by 2 behind the list's and the item's openers -
   and at level maxNesting the line loop calls no rule any more (tok_head answers go = false). *)
From RecordUpdate Require Import RecordUpdate.
From MD Require Import Base.Py Base.Str Model.StateBlock Model.Block Lemmas.Phases Lemmas.BlockEff Lemmas.BlockWF
     Lemmas.ScanLemmas Lemmas.MapWhole Lemmas.NoRaise.
From Coq Require Import ZifyBool.

Definition nf {A} (m : res A) : Prop := m <> OutOfFuel.

Lemma nf_ok {A} (v : A) : nf (Ok v). Proof. discriminate. Qed.
Lemma nf_raise {A} e : nf (@Raise A e). Proof. discriminate. Qed.
Lemma nf_bind {A B} (m : res A) (k : A -> res B) : nf m -> (forall x, m = Ok x -> nf (k x)) -> nf (bind m k).
Proof. intros Hm Hk. destruct m as [x|e'|]; cbn [bind]; [apply Hk; reflexivity | discriminate | exfalso; apply Hm; reflexivity]. Qed.

Lemma nf_tb l i : nf (tb l i).
Proof. unfold nf, tb. cbv zeta. match goal with |- match ?o with _ => _ end <> _ => destruct o end; discriminate. Qed.
Lemma nf_py_idx s i : nf (py_idx s i).
Proof. unfold nf, py_idx. cbv zeta. match goal with |- match ?o with _ => _ end <> _ => destruct o end; discriminate. Qed.
Lemma nf_tb_set l i v : nf (tb_set l i v).
Proof. unfold nf, tb_set. cbv zeta. match goal with |- (if ?o then _ else _) <> _ => destruct o end; discriminate. Qed.

Create HintDb nfdb.
#[export] Hint Resolve nf_ok nf_raise nf_tb nf_py_idx nf_tb_set : nfdb.

(* one step of a goal-directed walk: the head of the computation decides *)
Ltac nstep :=
  match goal with
  | |- nf (Ok _) => apply nf_ok
  | |- nf (Raise _) => apply nf_raise
  | |- nf (bind ?m _) => apply nf_bind; [solve [auto with nfdb | nwalk] | let x := fresh "x" in let E := fresh "E" in intros x E]
  | |- nf (if true then ?a else _) => change (nf a)
  | |- nf (if false then _ else ?a) => change (nf a)
  | |- nf (if ?b then _ else _) => let Q := fresh "Q" in destruct b eqn:Q
  | |- nf (match ?x with _ => _ end) => let Q := fresh "Q" in destruct x eqn:Q
  | |- nf _ => solve [auto with nfdb]
  end
with nwalk := cbv zeta; repeat (nstep; cbv zeta).

Lemma nf_line_start st l : nf (line_start st l).
Proof. unfold line_start. nwalk. Qed.
#[export] Hint Resolve nf_line_start : nfdb.
Lemma nf_is_empty st l : nf (is_empty st l).
Proof. unfold is_empty. nwalk. Qed.
#[export] Hint Resolve nf_is_empty : nfdb.
Lemma nf_is_code_block c st l : nf (is_code_block c st l).
Proof. unfold is_code_block. nwalk. Qed.
#[export] Hint Resolve nf_is_code_block : nfdb.
Lemma nf_skip_back p : forall fuel src pos mn, nf (skip_back fuel p src pos mn).
Proof. induction fuel as [|f IH]; intros; cbn [skip_back]; [apply nf_ok|]. nwalk. Qed.
#[export] Hint Resolve nf_skip_back : nfdb.
Lemma nf_gl_scan : forall fuel src first last ls li ind ts bs, nf (gl_scan fuel src first last ls li ind ts bs).
Proof. induction fuel as [|f IH]; intros; cbn [gl_scan]; [apply nf_ok|]. nwalk. Qed.
#[export] Hint Resolve nf_gl_scan : nfdb.
Lemma nf_get_lines_loop : forall fuel st line endl indent keep, nf (get_lines_loop fuel st line endl indent keep).
Proof. induction fuel as [|f IH]; intros; cbn [get_lines_loop]; [apply nf_ok|]. nwalk. Qed.
Lemma nf_get_lines st a b i k : nf (get_lines st a b i k).
Proof. unfold get_lines. nwalk. apply nf_get_lines_loop. Qed.
#[export] Hint Resolve nf_get_lines : nfdb.

Section Rules.
Context (cfg : bcfg) (rf cf : str -> str).

Lemma nf_code_block_at st l : nf (code_block_at cfg st l).
Proof. unfold code_block_at. auto with nfdb. Qed.
Hint Resolve nf_code_block_at : nfdb.

Lemma nf_code_scan : forall fuel st nl el last, nf (code_scan cfg fuel st nl el last).
Proof. induction fuel as [|f IH]; intros; cbn [code_scan]; [apply nf_ok|]. nwalk. Qed.
Hint Resolve nf_code_scan : nfdb.
Lemma r_code_f st sl el silent : nf (r_code cfg st sl el silent).
Proof. unfold r_code. nwalk. Qed.

Lemma nf_fence_scan : forall fuel st nl el mk ln, nf (fence_scan cfg fuel st nl el mk ln).
Proof. induction fuel as [|f IH]; intros; cbn [fence_scan]; [apply nf_ok|]. nwalk. Qed.
Hint Resolve nf_fence_scan : nfdb.
Lemma r_fence_f st sl el silent : nf (r_fence cfg st sl el silent).
Proof. unfold r_fence. nwalk. Qed.

Lemma nf_hr_scan : forall fuel src pos mx mk cnt, nf (hr_scan fuel src pos mx mk cnt).
Proof. induction fuel as [|f IH]; intros; cbn [hr_scan]; [apply nf_ok|]. nwalk. Qed.
Hint Resolve nf_hr_scan : nfdb.
Lemma r_hr_f st sl el silent : nf (r_hr cfg st sl el silent).
Proof. unfold r_hr. nwalk. Qed.

Lemma r_heading_f st sl el silent : nf (r_heading cfg st sl el silent).
Proof. unfold r_heading, skip_spaces_back, skip_chars_back. nwalk. Qed.

Lemma nf_html_scan : forall fuel st closer nl el, nf (html_scan fuel st closer nl el).
Proof. induction fuel as [|f IH]; intros; cbn [html_scan]; [apply nf_ok|]. nwalk. Qed.
Hint Resolve nf_html_scan : nfdb.
Lemma r_html_block_f st sl el silent : nf (r_html_block cfg st sl el silent).
Proof. unfold r_html_block. nwalk. Qed.

Definition term_f (term : term_t) : Prop := forall ch st a b, ch <> [] -> nf (term ch st a b).

Lemma para_scan_f term (TF : term_f term) chain (CN : chain <> []) : forall fuel st nl el cu,
  (Z.to_nat (el - nl) < fuel)%nat -> nf (para_scan fuel term chain st nl el cu).
Proof.
  induction fuel as [|f IH]; intros st nl el cu HF; [lia|]. cbn [para_scan].
  destruct (negb (nl <? el)) eqn:NE; [apply nf_ok|].
  nstep. nstep; [apply nf_ok|]. nstep. nstep; [apply IH; lia|].
  apply nf_bind; [nwalk|]. intros ul _. destruct ul; [apply nf_ok|].
  nstep; [apply IH; lia|]. apply nf_bind; [apply TF; exact CN|]. intros [t st'] _. destruct t; [apply nf_ok | apply IH; lia].
Qed.

Lemma r_paragraph_f term (TF : term_f term) st sl el silent : nf (r_paragraph term st sl el silent).
Proof.
  unfold r_paragraph. cbv zeta. apply nf_bind; [apply para_scan_f; [exact TF | discriminate | lia]|].
  intros [[nl u] st1] _. nwalk.
Qed.

Lemma r_lheading_f term (TF : term_f term) st sl el silent : nf (r_lheading cfg term st sl el silent).
Proof.
  unfold r_lheading. nstep. nstep; [apply nf_ok|]. cbv zeta.
  apply nf_bind; [apply para_scan_f; [exact TF | discriminate | lia]|].
  intros [[nl u] st1] _. nwalk.
Qed.

Lemma nf_ref_prescan : forall fuel src pos mx, nf (ref_prescan fuel src pos mx).
Proof. induction fuel as [|f IH]; intros; cbn [ref_prescan]; [apply nf_ok|]. nwalk. Qed.
Hint Resolve nf_ref_prescan : nfdb.

Lemma nf_ref_head st sl : nf (ref_head cfg st sl).
Proof. unfold ref_head. nwalk. Qed.

Lemma r_reference_f term (TF : term_f term) st sl el silent : nf (r_reference cfg rf cf term st sl el silent).
Proof.
  rewrite r_reference_eq. apply nf_bind; [apply nf_ref_head|]. intros go _. nstep; [apply nf_ok|].
  apply nf_bind; [apply para_scan_f; [exact TF | discriminate | lia]|].
  intros [[nl u] st1] _. nwalk.
Qed.

Lemma nf_delim_chars : forall fuel src pos mx, nf (delim_chars fuel src pos mx).
Proof. induction fuel as [|f IH]; intros; cbn [delim_chars]; [apply nf_ok|]. nwalk. Qed.
Hint Resolve nf_delim_chars : nfdb.
Lemma nf_get_line st l : nf (get_line st l).
Proof. unfold get_line. nwalk. Qed.
Hint Resolve nf_get_line : nfdb.

Lemma table_rows_f term (TF : term_f term) : forall fuel st aligns sl nl el tbody,
  (Z.to_nat (el - nl) < fuel)%nat -> nf (table_rows cfg fuel term st aligns sl nl el tbody).
Proof.
  induction fuel as [|f IH]; intros st aligns sl nl el tbody HF; [lia|]. cbn [table_rows].
  destruct (negb (nl <? el)) eqn:NE; [apply nf_ok|].
  nstep. nstep; [apply nf_ok|]. apply nf_bind; [apply TF; discriminate|]. intros [t st1] _.
  destruct t; [apply nf_ok|]. nstep. cbv zeta. nstep; [apply nf_ok|]. nstep. nstep; [apply nf_ok|].
  cbv zeta. nstep; apply IH; lia.
Qed.

Lemma nf_table_head st sl el : nf (table_head cfg st sl el).
Proof. unfold table_head. nwalk. Qed.

Lemma r_table_f term (TF : term_f term) st sl el silent : nf (r_table cfg term st sl el silent).
Proof.
  rewrite r_table_eq. apply nf_bind; [apply nf_table_head|]. intros [[aligns columns]|] _; [|apply nf_ok].
  destruct silent; [apply nf_ok|].
  apply nf_bind; [apply table_rows_f; [exact TF | lia]|]. intros [[nl tbody] st7] _. apply nf_ok.
Qed.

Lemma nf_bq_blanks : forall fuel src pos mx off bs adj, nf (bq_blanks fuel src pos mx off bs adj).
Proof. induction fuel as [|f IH]; intros; cbn [bq_blanks]; [apply nf_ok|]. nwalk. Qed.
Hint Resolve nf_bq_blanks : nfdb.
Lemma nf_bq_strip src pos mx sc bs : nf (bq_strip src pos mx sc bs).
Proof. unfold bq_strip. nwalk. Qed.
Hint Resolve nf_bq_strip : nfdb.
Lemma nf_save_line sv st l : nf (save_line sv st l).
Proof. unfold save_line. nwalk. Qed.
Hint Resolve nf_save_line : nfdb.
Lemma nf_apply_bq st l q : nf (apply_bq st l q).
Proof. unfold apply_bq. nwalk. Qed.
Hint Resolve nf_apply_bq : nfdb.
Lemma nf_restore_tables : forall ts st line b bs sc, nf (restore_tables st line b bs ts sc).
Proof.
  induction ts as [|t ts IH]; intros st line b bs sc.
  - destruct b, sc, bs; cbn [restore_tables]; apply nf_ok.
  - destruct b as [|x b]; [apply nf_raise|]. destruct sc as [|s0 sc]; [apply nf_raise|]. destruct bs as [|y bs]; [apply nf_raise|].
    cbn [restore_tables]. nwalk.
Qed.
Hint Resolve nf_restore_tables : nfdb.

Lemma bq_loop_f term (TF : term_f term) : forall fuel st sv nl el lle,
  (Z.to_nat (el - nl) < fuel)%nat -> nf (bq_loop fuel term st sv nl el lle).
Proof.
  induction fuel as [|f IH]; intros st sv nl el lle HF; [lia|]. cbn [bq_loop].
  destruct (negb (nl <? el)) eqn:NE; [apply nf_ok|].
  do 3 nstep. cbv zeta. nstep; [apply nf_ok|]. nstep. nstep.
  - do 4 nstep. apply IH; lia.
  - nstep; [apply nf_ok|]. apply nf_bind; [apply TF; discriminate|]. intros [t st1] _. destruct t.
    + nwalk.
    + do 2 nstep. apply IH; lia.
Qed.

Definition rec_f (L : Z) (rec : rec_t) : Prop := forall st a b,
  L <= b_level st -> 0 <= a -> a < b -> b <= b_lineMax st -> TI st -> nf (rec st a b).

Lemma bpush_lvl_open st ty tag f : b_level (bpush st ty tag 1 f) = b_level st + 1.
Proof. reflexivity. Qed.
Lemma bpush_lvl_close st ty tag f : b_level (bpush st ty tag (-1) f) = b_level st - 1.
Proof. reflexivity. Qed.

Lemma r_blockquote_f rec term (T : term_fr term) (TO : term_ok term) (TF : term_f term) st sl el silent :
  (silent = false -> rec_f (b_level st + 1) rec) ->
  (silent = false -> 0 <= sl /\ sl < el /\ el <= b_lineMax st /\ TI st) ->
  nf (r_blockquote cfg rec term st sl el silent).
Proof.
  intros RF PRE. unfold r_blockquote. cbv zeta.
  apply nf_bind; [auto with nfdb|]. intros pos LS. do 2 nstep. nstep; [apply nf_ok|]. rewrite match_some_62.
  nstep; [|apply nf_ok]. destruct silent; [apply nf_ok|].
  specialize (RF eq_refl). destruct (PRE eq_refl) as (P0 & P1 & P2 & HTI).
  do 2 nstep.
  apply nf_bind; [auto with nfdb|]. intros q BS. apply nf_bind; [auto with nfdb|]. intros sv0 SL.
  apply nf_bind; [auto with nfdb|]. intros st1 AB.
  apply nf_bind; [apply bq_loop_f; [exact TF | lia]|]. intros [[nl sv] st3] BL.
  pose proof (apply_bq_same _ _ _ _ AB) as [_ LV1].
  pose proof (bq_loop_ext term TO _ _ _ _ _ _ _ _ _ BL) as [LV3 _].
  destruct (bq_lines term T _ _ _ _ _ _ _ _ _ _ _ _ _ _ _ HTI P0 P1 P2 LS BS SL AB BL) as (L1 & L2 & _ & HT3 & _).
  apply nf_bind.
  - apply RF; [| exact P0 | lia | exact L2 | exact HT3].
    rewrite bpush_lvl_open. change (b_level (st3 <| b_blkIndent := 0 |>)) with (b_level st3). rewrite LV3. cbn. rewrite LV1. lia.
  - intros st6 _. nwalk.
Qed.

Lemma nf_ordered_digits : forall fuel src start pos mx, nf (ordered_digits fuel src start pos mx).
Proof. induction fuel as [|f IH]; intros; cbn [ordered_digits]; [apply nf_ok|]. nwalk. Qed.
Hint Resolve nf_ordered_digits : nfdb.
Lemma nf_skip_ordered st l : nf (skip_ordered st l).
Proof. unfold skip_ordered. nwalk. Qed.
Hint Resolve nf_skip_ordered : nfdb.
Lemma nf_skip_bullet st l : nf (skip_bullet st l).
Proof. unfold skip_bullet. nwalk. Qed.
Hint Resolve nf_skip_bullet : nfdb.
Lemma nf_list_blanks : forall fuel src pos mx off bs, nf (list_blanks fuel src pos mx off bs).
Proof. induction fuel as [|f IH]; intros; cbn [list_blanks]; [apply nf_ok|]. nwalk. Qed.
Hint Resolve nf_list_blanks : nfdb.

Lemma nf_item_reads st sl nl pam : nf (item_reads st sl nl pam).
Proof. unfold item_reads. nwalk. Qed.
Lemma nf_item_back st3 sl ots osc : nf (item_back st3 sl ots osc).
Proof. unfold item_back. nwalk. Qed.
Lemma item_next_f term (TF : term_f term) st6 isOrd mc nl el start : nf (item_next cfg term st6 isOrd mc nl el start).
Proof.
  unfold item_next. nstep; [apply nf_ok|]. nstep. nstep; [apply nf_ok|]. nstep. nstep; [apply nf_ok|].
  apply nf_bind; [apply TF; discriminate|]. intros [t st7] _. destruct t; [apply nf_ok|]. nwalk.
Qed.

Lemma item_body_level rec (RO : rec_ok rec) st2 sl el blank st3 : item_body rec st2 sl el blank = Ok st3 -> b_level st3 = b_level st2.
Proof. unfold item_body. intros H. rstep H. rstep H; [injection H as <-; reflexivity | exact (proj1 (RO _ _ _ _ H))]. Qed.

Lemma list_items_f rec term (R : rec_c rec) (RO : rec_ok rec) (T : term_fr term) (TF : term_f term) L (RF : rec_f (L + 1) rec) :
  forall fuel st isOrd mc sl el pam start tight pee,
  b_level st = L -> 0 <= sl -> sl < el -> el <= b_lineMax st -> TI st -> b_line st = sl ->
  (forall ls, line_start st sl = Ok ls -> ls < pam) ->
  (Z.to_nat (el - sl) < fuel)%nat ->
  nf (list_items cfg fuel rec term st isOrd mc sl sl el pam start tight pee).
Proof.
  induction fuel as [|f IH]; intros st isOrd mc sl el pam start tight pee LV S0 S1 S2 HT BL PM HF; [lia|].
  rewrite list_items_S.
  assert (NE : negb (sl <? el) = false) by lia. rewrite NE.
  apply nf_bind; [apply nf_item_reads|]. intros [[[[[blank indent] ots] osc] ts'] sc'] RD.
  destruct (item_reads_run _ _ _ _ _ _ _ _ _ RD HT S0 ltac:(lia) PM) as [G2 ST2]. destruct (ST2 isOrd mc start) as [HT2 FO].
  assert (LV2 : b_level (item_st2 st isOrd mc sl start pam indent ts' sc') = L + 1) by (rewrite <- LV; reflexivity).
  apply nf_bind.
  { unfold item_body. apply nf_bind; [nwalk|]. intros e _. destruct e; [apply nf_ok|]. apply RF; [lia | exact S0 | exact S1 | exact S2 | exact HT2]. }
  intros st3 BODY.
  pose proof (item_body_level rec RO _ _ _ _ _ BODY) as LV3. rewrite LV2 in LV3.
  apply (item_body_run rec R) in BODY; [|exact S0|exact S1|exact S2|exact BL|exact HT2|exact FO].
  apply nf_bind; [apply nf_item_back|]. intros [[pee' ts''] sc''] BK. cbv zeta.
  apply nf_bind; [apply (item_next_f term TF)|]. intros [[[pam' start']|] st7] NX; [|apply nf_ok].
  destruct (item_next_run cfg term T _ _ _ _ _ _ _ _ NX) as [F7 PM']. destruct (PM' _ _ eq_refl) as [EN PM2].
  destruct (item_closed _ _ _ _ _ _ _ _ _ _ _ sc'' _ BODY (item_back_run _ _ _ _ _ _ _ BK (proj1 (proj2 (proj2 (proj2 BODY)))) S0 G2) F7)
    as (D1 & D2 & D3 & D4 & _).
  apply IH; [rewrite F7; change (b_level st3 - 1 = L); lia | lia | lia | lia | exact D4 | exact D2 | exact PM2 | lia].
Qed.

Lemma nf_list_head st sl silent : nf (list_head cfg st sl silent).
Proof. unfold list_head. nwalk. Qed.

Lemma r_list_f rec term (R : rec_c rec) (RO : rec_ok rec) (T : term_fr term) (TF : term_f term) st sl el :
  rec_f (b_level st + 2) rec ->
  0 <= sl -> sl < el -> el <= b_lineMax st -> TI st -> b_line st = sl ->
  nf (r_list cfg rec term st sl el false).
Proof.
  intros RF P0 P1 P2 HTI P3. rewrite r_list_eq.
  apply nf_bind; [apply nf_list_head|]. intros [[[[[isOrd pam] mv] mc] start]|] HD; [|apply nf_ok].
  destruct (list_head_run cfg _ _ _ _ _ _ _ _ HD) as [LS PM].
  destruct (list_st1_push st isOrd mc mv sl) as (ty & tag & f & E1). rewrite E1.
  apply nf_bind; [|intros [[nl tight] st3] _; apply nf_ok].
  replace (b_level st + 2) with (b_level st + 1 + 1) in RF by lia.
  apply (list_items_f rec term R RO T TF (b_level st + 1) RF); [reflexivity | exact P0 | exact P1 | exact P2 | exact HTI | exact P3 | | lia].
  intros ls LS'. change (line_start st sl = Ok ls) in LS'. congruence.
Qed.

(* silent mode: the three rules that take callbacks answer before they use them *)
Lemma r_table_silent_f term st sl el : nf (r_table cfg term st sl el true).
Proof. rewrite r_table_eq. apply nf_bind; [apply nf_table_head|]. intros [[aligns columns]|] _; apply nf_ok. Qed.
Lemma r_blockquote_silent_f rec term st sl el : nf (r_blockquote cfg rec term st sl el true).
Proof. unfold r_blockquote. nwalk. Qed.
Lemma r_list_silent_f rec term st sl el : nf (r_list cfg rec term st sl el true).
Proof. unfold r_list. nwalk. Qed.

Lemma apply_rule_silent_f rec term n st sl el :
  silent_capable n -> str_eqb n nm_reference = false ->
  nf (apply_rule cfg rf cf rec term n st sl el true).
Proof.
  (* code, lheading and paragraph are not silent-capable, reference is excluded by name: four cases are none *)
  intros (S1 & S2 & S3) NR. apply apply_rule_cases; try (intros ->; try discriminate);
    [apply r_table_silent_f | apply r_fence_f | apply r_blockquote_silent_f | apply r_hr_f | apply r_list_silent_f
    | apply r_html_block_f | apply r_heading_f | apply nf_ok].
Qed.

Lemma run_chain_f : forall names st l el,
  (forall n, In n names -> silent_capable n /\ str_eqb n nm_reference = false) ->
  nf (run_chain cfg rf cf names st l el).
Proof.
  induction names as [|n names IH]; intros st l el SC; cbn [run_chain]; [apply nf_ok|].
  apply nf_bind; [apply apply_rule_silent_f; apply (SC n); left; reflexivity|].
  intros [r s1] _. destruct r; [apply nf_ok|]. apply IH. intros m Hm. apply SC. right. exact Hm.
Qed.

Lemma terminated_f (TNO : term_names_ok cfg) : term_f (terminated cfg rf cf).
Proof. intros ch st a b CN. unfold terminated. apply run_chain_f. intros n Hn. exact (TNO ch n CN Hn). Qed.

Lemma apply_rule_f rec term (R : rec_c rec) (RO : rec_ok rec) (T : term_fr term) (TO : term_ok term) (TF : term_f term) n st sl el :
  rec_f (b_level st + 1) rec -> pre st sl el ->
  nf (apply_rule cfg rf cf rec term n st sl el false).
Proof.
  intros RF (P0 & P1 & P2 & P3 & HTI). apply apply_rule_cases; [intros _ ..|apply nf_ok].
  - apply r_table_f; exact TF.
  - apply r_code_f.
  - apply r_fence_f.
  - apply r_blockquote_f; try assumption; [intros _; exact RF | intros _; exact (conj P0 (conj P1 (conj P2 HTI)))].
  - apply r_hr_f.
  - apply r_list_f; try assumption. intros s a b HL. apply RF. lia.
  - apply r_reference_f; exact TF.
  - apply r_html_block_f.
  - apply r_heading_f.
  - apply r_lheading_f; exact TF.
  - apply r_paragraph_f; exact TF.
Qed.

Lemma try_rules_f rec (R : rec_c rec) (RO : rec_ok rec) (TNO : term_names_ok cfg) L (RF : rec_f (L + 1) rec) :
  forall names st sl el, b_level st = L -> pre st sl el -> nf (try_rules cfg rf cf rec names st sl el).
Proof.
  induction names as [|n names IH]; intros st sl el LV P; cbn [try_rules]; [apply nf_ok|].
  pose proof (term_names_silent cfg TNO) as ST.
  apply nf_bind.
  { apply (apply_rule_f rec _ R RO (terminated_fr cfg rf cf ST) (terminated_ok cfg rf cf) (terminated_f TNO)); [rewrite LV; exact RF | exact P]. }
  intros [r s1] AR. destruct r; [apply nf_ok|].
  destruct (apply_rule_c cfg rf cf rec _ R (terminated_fr cfg rf cf ST) _ _ _ _ _ _ _ AR ltac:(discriminate)) as [C _].
  unfold rule_c in C. cbn [andb] in C.
  apply IH; [rewrite C; exact LV | exact (pre_fr _ _ _ _ C P)].
Qed.

Lemma nf_tok_head st line el : nf (tok_head cfg st line el).
Proof. unfold tok_head. nwalk. Qed.
Lemma nf_tok_next st2 el hel : nf (tok_next st2 el hel).
Proof. unfold tok_next. nwalk. Qed.

Lemma tok_loop_f rec (R : rec_c rec) (RO : rec_ok rec) (TNO : term_names_ok cfg) (PA : mem_str nm_paragraph (c_rules cfg) = true) L
      (RF : L < c_maxNesting cfg -> rec_f (L + 1) rec) :
  forall fuel st line el hel, b_level st = L ->
  0 <= line -> line <= b_lineMax st -> el <= b_lineMax st -> TI st ->
  (Z.to_nat (el - line) < fuel)%nat ->
  nf (tok_loop cfg rf cf fuel rec st line el hel).
Proof.
  pose proof (term_names_silent cfg TNO) as ST.
  induction fuel as [|f IH]; intros st line el hel LV L0 L1 L2 HT FB; [lia|].
  rewrite tok_loop_round.
  destruct (negb (line <? el)) eqn:NE; [apply nf_ok|].
  apply nf_bind; [apply nf_tok_head|]. intros [l go] HD.
  destruct (tok_head_run cfg _ _ _ _ _ HD ltac:(lia) L1 L2) as (B & _ & G).
  destruct go; [|apply nf_ok]. destruct G as (EL & MN & _).
  destruct (tok_round_m cfg rf cf rec R ST PA _ _ _ _ HD ltac:(lia) L0 L1 L2 HT) as [P RD].
  apply nf_bind.
  { apply (try_rules_f rec R RO TNO L (RF ltac:(lia))); [exact LV | exact P]. }
  intros st2 TR.
  pose proof (try_rules_ext cfg rf cf rec RO _ _ _ _ _ TR) as [LV2 _].
  change (b_level (st_line st l)) with (b_level st) in LV2. rewrite LV in LV2.
  destruct (RD _ TR) as ((A1 & A2 & A3 & A4 & A5) & NXT). cbn [b_lineMax st_line set] in A1, A2.
  apply nf_bind; [apply nf_tok_next|]. intros [l' hel'] NX. pose proof (NXT _ _ _ NX) as Bl.
  apply IH; [exact LV2 | lia | cbn; lia | cbn; lia | exact A4 | lia].
Qed.

(* depth fuel and level together reach maxNesting + 2: each nested call gives up one unit of depth for at least one
   level, and at the limit the loop needs no depth *)
Lemma tokenize_f (TNO : term_names_ok cfg) (PA : mem_str nm_paragraph (c_rules cfg) = true) :
  forall d st a b, (1 <= d)%nat -> c_maxNesting cfg + 2 <= Z.of_nat d + b_level st ->
  0 <= a -> a <= b -> b <= b_lineMax st -> TI st ->
  nf (tokenize cfg rf cf d st a b).
Proof.
  pose proof (term_names_silent cfg TNO) as ST.
  induction d as [|d IH]; intros st a b D1 DL A0 AB BL HT; [lia|].
  cbn [tokenize].
  apply (tok_loop_f _ (tokenize_rec_c cfg rf cf ST PA d) (tokenize_ok cfg rf cf d) TNO PA (b_level st)); try assumption; try lia; try reflexivity.
  intros LM s a' b' HL A0' AB' BL' HT'. apply IH; try assumption; lia.
Qed.

End Rules.

Theorem block_parse_fuel cfg rf cf src env toks :
  term_names_ok cfg -> mem_str nm_paragraph (c_rules cfg) = true ->
  block_parse cfg rf cf src env toks <> OutOfFuel.
Proof.
  intros TNO PA. unfold block_parse.
  destruct src as [|c src0]; [discriminate|].
  set (st0 := state_init (c :: src0) env toks).
  pose proof (state_init_TI (c :: src0) env toks) as HT. fold st0 in HT.
  destruct (state_init_tables (c :: src0) env toks) as (_ & _ & _ & _ & _ & LM & _). cbv zeta in LM. fold st0 in LM.
  assert (B0 : b_line st0 = 0) by reflexivity. rewrite B0.
  apply (tokenize_f cfg rf cf TNO PA); try lia; [|exact HT].
  change (b_level st0) with 0. lia.
Qed.

Theorem block_parse_total cfg rf cf src env toks :
  term_names_ok cfg -> mem_str nm_paragraph (c_rules cfg) = true ->
  exists st, block_parse cfg rf cf src env toks = Ok st.
Proof.
  intros TNO PA.
  destruct (block_parse cfg rf cf src env toks) as [st|e|] eqn:E.
  - exists st. reflexivity.
  - exfalso. exact (block_parse_no_raise cfg rf cf src env toks TNO PA e E).
  - exfalso. exact (block_parse_fuel cfg rf cf src env toks TNO PA E).
Qed.
