(* What a call of a block rule can do to the part of the state that outlives it: the token list, the
   nesting level, env and the two container indents.  [eff] lists the possible steps once - push a
   leaf token, wrap a run in an open / close pair, retouch map or hidden of tokens pushed since,
   record one reference definition, run something between a change of the indents and its undoing -
   and one symbolic execution of the eleven rules of Model/Block.v, the terminator chains and the
   line loop shows that every call is made of such steps.  Balance (BlockWF.v), vocabulary
   (BlockKinds.v), env growth (EnvLemmas.v) and restored indents (CtxRestore.v) are each one
   induction over [eff]. *)
From RecordUpdate Require Import RecordUpdate.
From MD Require Import Base.Py Base.Str Model.Token Model.Utils Model.StateBlock Model.Url Model.Render Model.Block.
From MD Require Import Lemmas.BlockLemmas Lemmas.Phases.
From Coq Require Import ZifyBool.

Lemma match_some_62 {A} (o : option Z) (a b : A) :
  (match o with Some 62 => a | _ => b end) = if (match o with Some z => z =? 62 | None => false end) then a else b.
Proof.
  destruct o as [z|]; [|reflexivity].
  destruct (Z.eqb_spec z 62) as [->|N]; [reflexivity|].
  destruct z as [|p|p]; try reflexivity.
  do 6 (try destruct p as [p|p|]); try reflexivity. contradiction N; reflexivity.
Qed.

Lemma bpush_tokens st ty tag nesting f :
  b_tokens (bpush st ty tag nesting f)
  = b_tokens st ++ [f (set_level (set_block (new_token ty tag nesting) true) (if nesting <? 0 then b_level st - 1 else b_level st))].
Proof. reflexivity. Qed.

Definition appends (P : token -> Prop) (st st' : bstate) : Prop := exists seg, b_tokens st' = b_tokens st ++ seg /\ Forall P seg.

Lemma appends_nil (P : token -> Prop) st st' : b_tokens st' = b_tokens st -> appends P st st'.
Proof. intros E. exists []. rewrite app_nil_r. split; [exact E | constructor]. Qed.
Lemma appends_trans (P : token -> Prop) a b c : appends P a b -> appends P b c -> appends P a c.
Proof.
  intros (s1 & E1 & F1) (s2 & E2 & F2). exists (s1 ++ s2). split; [rewrite E2, E1, app_assoc; reflexivity|].
  apply Forall_app. split; assumption.
Qed.
Lemma appends_impl (P Q : token -> Prop) st st' : (forall t, P t -> Q t) -> appends P st st' -> appends Q st st'.
Proof. intros I (seg & E & F). exists seg. split; [exact E | exact (Forall_impl Q I F)]. Qed.
Lemma appends_push (P : token -> Prop) st ty tag n f :
  P (f (set_level (set_block (new_token ty tag n) true) (if n <? 0 then b_level st - 1 else b_level st))) -> appends P st (bpush st ty tag n f).
Proof. intros M. eexists. split; [apply bpush_tokens | constructor; [exact M | constructor]]. Qed.

Lemma bpush_lvl st ty tag nesting f :
  b_level (bpush st ty tag nesting f)
  = (if 0 <? nesting then (if nesting <? 0 then b_level st - 1 else b_level st) + 1
     else (if nesting <? 0 then b_level st - 1 else b_level st)).
Proof. reflexivity. Qed.

(* what the modifiers that the rules hand to bpush do: children are set only on an inline token (to []),
   attrs only on ordered_list_open (start) and on th and td (style) *)
Definition plain (f : token -> token) : Prop :=
  forall t, ttype (f t) = ttype t /\ ttag (f t) = ttag t /\ tnesting (f t) = tnesting t /\ tlevel (f t) = tlevel t
            /\ (tchildren (f t) = tchildren t \/ tchildren (f t) = Some [])
            /\ (tattrs (f t) = tattrs t \/ (exists v, tattrs (f t) = [(s_start, AInt v)])
                \/ exists a, tattrs (f t) = [(s_style, AStr a)]).

Ltac solve_plain :=
  let t := fresh "t" in
  intros t; unfold map_tok, cell_attrs;
  repeat match goal with |- context [match ?c with _ => _ end] => destruct c end;
  repeat split;
  first [ reflexivity | left; reflexivity | right; reflexivity
        | right; left; eexists; reflexivity | right; right; eexists; reflexivity ].

(* the rules go back to a token only to set its map (containers, once their end is known) or to
   hide it (paragraphs of a tight list) *)
Definition retouch (x y : token) : Prop := exists m h, y = set_hidden (set_map x m) h.

Definition touched (k : nat) (l l' : list token) : Prop := firstn k l = firstn k l' /\ Forall2 retouch l l'.

Lemma retouch_refl x : retouch x x.
Proof. exists (tmap x), (thidden x). destruct x; reflexivity. Qed.

Lemma retouch_trans x y z : retouch x y -> retouch y z -> retouch x z.
Proof. intros (m & h & ->) (m' & h' & ->). exists m', h'. reflexivity. Qed.

Lemma Forall2_retouch_refl l : Forall2 retouch l l.
Proof. induction l; constructor; [apply retouch_refl | assumption]. Qed.

Lemma touched_refl k l : touched k l l.
Proof. split; [reflexivity | apply Forall2_retouch_refl]. Qed.

Lemma touched_trans k a b c : touched k a b -> touched k b c -> touched k a c.
Proof.
  intros [P1 F1] [P2 F2]. split; [congruence|]. clear P1 P2. revert c F2.
  induction F1 as [|x y a b R _ IH]; intros c F2; inversion F2; subst; constructor;
    [eapply retouch_trans; eassumption | apply IH; assumption].
Qed.

Lemma update_nth_touched (f : token -> token) (K : forall x, retouch x (f x)) : forall n k l, (k <= n)%nat ->
  touched k l (update_nth_tok n f l).
Proof.
  unfold update_nth_tok. induction n as [|n IH]; intros k [|x l] Hk; try apply touched_refl.
  - assert (k = O) by lia. subst k. split; [reflexivity|]. constructor; [apply K | apply Forall2_retouch_refl].
  - destruct k as [|k]; [destruct (IH O l (Nat.le_0_l n)) as [_ F] | destruct (IH k l) as [P F]; [lia|]].
    + split; [reflexivity|]. constructor; [apply retouch_refl | exact F].
    + split; [cbn [firstn]; f_equal; exact P|]. constructor; [apply retouch_refl | exact F].
Qed.

Lemma set_map_at_touched k tokens idx g : (k <= idx)%nat -> touched k tokens (set_map_at tokens idx g).
Proof.
  intros Hk. unfold set_map_at. apply update_nth_touched; [|exact Hk].
  intros x. exists (g (tmap x)), (thidden x). destruct x; reflexivity.
Qed.

Lemma mark_tight_touched k : forall fuel tokens i length level, (k <= Z.to_nat i)%nat ->
  touched k tokens (mark_tight fuel tokens i length level).
Proof.
  induction fuel as [|f IH]; intros tokens i length level Hk; cbn [mark_tight]; [apply touched_refl|].
  destruct (negb (i <? length)); [apply touched_refl|].
  destruct (nth_error tokens (Z.to_nat i)) as [t|]; [|apply touched_refl].
  destruct ((tlevel t =? level) && str_eqb (ttype t) [112; 97; 114; 97; 103; 114; 97; 112; 104; 95; 111; 112; 101; 110]).
  - eapply touched_trans; [|apply IH; lia].
    assert (K : forall x, retouch x (set_hidden x true)) by (intros x; exists (tmap x), true; destruct x; reflexivity).
    eapply touched_trans; apply update_nth_touched; try exact K; lia.
  - apply IH; lia.
Qed.

Lemma touched_app a seg l' : touched (length a) (a ++ seg) l' -> exists seg', l' = a ++ seg' /\ Forall2 retouch seg seg'.
Proof.
  intros [P F]. apply Forall2_app_inv_l in F. destruct F as (a' & seg' & Fa & Fs & ->).
  exists seg'. split; [|exact Fs]. f_equal.
  assert (L : length a' = length a) by (clear P; induction Fa; cbn [length]; congruence).
  rewrite <- L in P at 2. rewrite !firstn_app, L, Nat.sub_diag, !firstn_all, !app_nil_r in P.
  rewrite <- L, firstn_all in P. symmetry. exact P.
Qed.

Lemma update_nth_app (f : token -> token) : forall (a : list token) x r,
  update_nth_tok (length a) f (a ++ x :: r) = a ++ f x :: r.
Proof.
  unfold update_nth_tok. induction a as [|y a IH]; intros x r; cbn [length app]; [reflexivity|].
  f_equal. apply IH.
Qed.

Definition same_tl (a b : bstate) : Prop := b_tokens b = b_tokens a /\ b_level b = b_level a.
Definition same_in (a b : bstate) : Prop := b_blkIndent b = b_blkIndent a /\ b_listIndent b = b_listIndent a.
(* nothing that outlives the call has changed: the cursor, parentType, tight, the line tables may have *)
Definition frame (a b : bstate) : Prop := same_tl a b /\ b_env b = b_env a /\ same_in a b.

Ltac frame_tac := repeat split; reflexivity.

Lemma frame_refl a : frame a a. Proof. frame_tac. Qed.
Lemma frame_trans a b c : frame a b -> frame b c -> frame a c.
Proof. intros ([A1 A2] & A3 & A4 & A5) ([B1 B2] & B3 & B4 & B5). repeat split; congruence. Qed.

Lemma apply_bq_frame st line q st' : apply_bq st line q = Ok st' -> frame st st'.
Proof. unfold apply_bq. intros H. repeat rstep H. rfinish H. frame_tac. Qed.

Lemma restore_tables_frame : forall ts st line b bs sc st',
  restore_tables st line b bs ts sc = Ok st' -> frame st st'.
Proof.
  induction ts as [|t ts IH]; intros st line b bs sc st' H.
  - destruct b, sc, bs; cbn [restore_tables] in H; rfinish H; apply frame_refl.
  - destruct b as [|x b]; [discriminate H|]. destruct sc as [|s0 sc]; [discriminate H|]. destruct bs as [|y bs]; [discriminate H|].
    cbn [restore_tables] in H. repeat rstep H.
    eapply frame_trans; [|eapply IH; exact H]. frame_tac.
Qed.

Lemma apply_rule_cases cfg rf cf (P : res (bool * bstate) -> Prop) rec term n st sl el silent :
  (n = nm_table -> P (r_table cfg term st sl el silent)) -> (n = nm_code -> P (r_code cfg st sl el silent)) ->
  (n = nm_fence -> P (r_fence cfg st sl el silent)) -> (n = nm_blockquote -> P (r_blockquote cfg rec term st sl el silent)) ->
  (n = nm_hr -> P (r_hr cfg st sl el silent)) -> (n = nm_list -> P (r_list cfg rec term st sl el silent)) ->
  (n = nm_reference -> P (r_reference cfg rf cf term st sl el silent)) -> (n = nm_html_block -> P (r_html_block cfg st sl el silent)) ->
  (n = nm_heading -> P (r_heading cfg st sl el silent)) -> (n = nm_lheading -> P (r_lheading cfg term st sl el silent)) ->
  (n = nm_paragraph -> P (r_paragraph term st sl el silent)) -> P (Ok (false, st)) ->
  P (apply_rule cfg rf cf rec term n st sl el silent).
Proof.
  intros. unfold apply_rule.
  repeat match goal with |- P (if str_eqb n ?m then _ else _) => destruct (str_eqb_spec n m); [auto|] end. assumption.
Qed.

(* the choice of [A] below when nothing is asked of the names of the rules *)
Definition any_rule (n : str) : Prop := True.

Lemma heading_level_spec : forall fuel src pos maximum level p l,
  heading_level fuel src pos maximum level = (p, l) ->
  p - pos = l - level /\ pos <= p /\ (forall q, pos <= q < p -> char_at src q = Some 35).
Proof.
  induction fuel as [|f IH]; intros src pos maximum level p l H; cbn [heading_level] in H;
    [injection H as <- <-; repeat split; intros; lia|].
  destruct (char_at src pos) as [c|] eqn:Ec; [|injection H as <- <-; repeat split; intros; lia].
  destruct (Z.eqb_spec c 35) as [->|N].
  - destruct ((pos <? maximum) && (level <=? 6)); [|injection H as <- <-; repeat split; intros; lia].
    apply IH in H. destruct H as (A & B & C). repeat split; try lia.
    intros q Hq. destruct (Z.eq_dec q pos) as [->|Nq]; [exact Ec | apply C; lia].
  - assert (E : (match c with 35 => if (pos <? maximum) && (level <=? 6) then heading_level f src (pos + 1) maximum (level + 1) else (pos, level) | _ => (pos, level) end) = (pos, level)).
    { destruct c as [|q|q]; try reflexivity. do 6 (try destruct q as [q|q|]); try reflexivity. contradiction N; reflexivity. }
    rewrite E in H. injection H as <- <-. repeat split; intros; lia.
Qed.

Section Eff.
Context (cfg : bcfg) (rf cf : str -> str).

Definition heading_rule (n : str) : Prop := n = nm_heading \/ n = nm_lheading.

Inductive leaf_kind : str -> str -> str -> Prop :=
| leaf_hr : leaf_kind nm_hr nm_hr nm_hr
| leaf_code : leaf_kind nm_code [99; 111; 100; 101; 95; 98; 108; 111; 99; 107] [99; 111; 100; 101]
| leaf_fence : leaf_kind nm_fence nm_fence [99; 111; 100; 101]
| leaf_html : c_html cfg = true -> leaf_kind nm_html_block nm_html_block []
| leaf_definition : leaf_kind nm_reference s_definition []
| leaf_inline n : n = nm_paragraph \/ heading_rule n \/ n = nm_table -> leaf_kind n s_inline [].

Inductive pair_kind : str -> str -> str -> str -> Prop :=
| pair_paragraph : pair_kind nm_paragraph [112; 97; 114; 97; 103; 114; 97; 112; 104; 95; 111; 112; 101; 110]
                        [112; 97; 114; 97; 103; 114; 97; 112; 104; 95; 99; 108; 111; 115; 101] [112]
| pair_heading n l : heading_rule n -> 1 <= l <= 6 ->
    pair_kind n [104; 101; 97; 100; 105; 110; 103; 95; 111; 112; 101; 110] [104; 101; 97; 100; 105; 110; 103; 95; 99; 108; 111; 115; 101] (hN l)
| pair_blockquote : pair_kind nm_blockquote [98; 108; 111; 99; 107; 113; 117; 111; 116; 101; 95; 111; 112; 101; 110]
                         [98; 108; 111; 99; 107; 113; 117; 111; 116; 101; 95; 99; 108; 111; 115; 101] nm_blockquote
| pair_ol : pair_kind nm_list [111; 114; 100; 101; 114; 101; 100; 95; 108; 105; 115; 116; 95; 111; 112; 101; 110]
                 [111; 114; 100; 101; 114; 101; 100; 95; 108; 105; 115; 116; 95; 99; 108; 111; 115; 101] [111; 108]
| pair_ul : pair_kind nm_list [98; 117; 108; 108; 101; 116; 95; 108; 105; 115; 116; 95; 111; 112; 101; 110]
                 [98; 117; 108; 108; 101; 116; 95; 108; 105; 115; 116; 95; 99; 108; 111; 115; 101] [117; 108]
| pair_li : pair_kind nm_list s_list_item_open s_list_item_close s_li
| pair_table : pair_kind nm_table [116; 97; 98; 108; 101; 95; 111; 112; 101; 110] [116; 97; 98; 108; 101; 95; 99; 108; 111; 115; 101] nm_table
| pair_thead : pair_kind nm_table [116; 104; 101; 97; 100; 95; 111; 112; 101; 110] [116; 104; 101; 97; 100; 95; 99; 108; 111; 115; 101]
                    [116; 104; 101; 97; 100]
| pair_tbody : pair_kind nm_table [116; 98; 111; 100; 121; 95; 111; 112; 101; 110] [116; 98; 111; 100; 121; 95; 99; 108; 111; 115; 101]
                    [116; 98; 111; 100; 121]
| pair_tr : pair_kind nm_table s_tr_open s_tr_close s_tr
| pair_th : pair_kind nm_table [116; 104; 95; 111; 112; 101; 110] [116; 104; 95; 99; 108; 111; 115; 101] [116; 104]
| pair_td : pair_kind nm_table [116; 100; 95; 111; 112; 101; 110] [116; 100; 95; 99; 108; 111; 115; 101] [116; 100].

(* [A]: the names of the rules that may have run; [C]: what a callback nothing is known about may do *)
Context (A : str -> Prop) (C : bstate -> bstate -> Prop).

Inductive eff : bstate -> bstate -> Prop :=
| eff_call a b : C a b -> eff a b
| eff_refl a : eff a a
| eff_trans a b c : eff a b -> eff b c -> eff a c
| eff_leaf a n ty tag f : A n -> leaf_kind n ty tag -> plain f -> eff a (bpush a ty tag 0 f)
| eff_wrap a n oty cty tag f f' b : A n -> pair_kind n oty cty tag -> plain f -> plain f' ->
    eff (bpush a oty tag 1 f) b -> eff a (bpush b cty tag (-1) f')
| eff_touch a b X : eff a b -> b_level X = b_level b -> b_env X = b_env b -> same_in b X ->
    touched (length (b_tokens a)) (b_tokens b) (b_tokens X) -> eff a X
| eff_define a X label title raw m : same_tl a X -> same_in a X ->
    validate_link_re (normalize_link rf raw) = true ->
    b_env X = record_ref (b_env a) label (mkRef title (normalize_link rf raw) m) -> eff a X
(* [a'] is [a] with other indents; if the run from [a'] hands its indents back then [X] has those of [a].  The last
   premise is an implication, not a fact, so that an induction over eff can discharge it from its hypothesis for the
   inner run (CtxRestore.eff_ctx does) while the inductions that do not look at indents ignore it *)
| eff_bracket a a' b X : same_tl a a' -> b_env a' = b_env a -> eff a' b -> same_tl b X -> b_env X = b_env b ->
    (same_in a' b -> same_in a X) -> eff a X.

Lemma eff_frame a b : frame a b -> eff a b.
Proof.
  intros ([T L] & E & I). apply (eff_touch a a b (eff_refl a) L E I). rewrite T. apply touched_refl.
Qed.

Lemma eff_frame_l a a' b : frame a a' -> eff a' b -> eff a b.
Proof. intros F. apply eff_trans, eff_frame, F. Qed.

Lemma eff_frame_r a b b' : eff a b -> frame b b' -> eff a b'.
Proof. intros E F. eapply eff_trans; [exact E | apply eff_frame, F]. Qed.

Lemma eff_retok a b toks : eff a b -> touched (length (b_tokens a)) (b_tokens b) toks -> eff a (b <| b_tokens := toks |>).
Proof. intros E Tc. apply (eff_touch a b _ E); try frame_tac. exact Tc. Qed.

Lemma eff_line a l b : eff (st_line a l) b -> eff a b.
Proof. apply eff_frame_l. frame_tac. Qed.
Lemma eff_parent a b p : eff a b -> eff a (st_parent b p).
Proof. intros E. apply (eff_frame_r _ _ _ E). frame_tac. Qed.
Lemma eff_line_r a b l : eff a b -> eff a (st_line b l).
Proof. intros E. apply (eff_frame_r _ _ _ E). frame_tac. Qed.

Lemma eff_block a n oty cty tag f c x y f' : A n -> pair_kind n oty cty tag -> leaf_kind n s_inline [] -> plain f -> plain f' ->
  eff a (bpush (push_inline (bpush a oty tag 1 f) c x y) cty tag (-1) f').
Proof.
  intros An Pn Ln F F'. apply (eff_wrap a n oty cty tag f f' _ An Pn F F').
  unfold push_inline. apply (eff_leaf _ n); [exact An | exact Ln | solve_plain].
Qed.

Definition rec_eff (rec : rec_t) : Prop := forall s a b s', rec s a b = Ok s' -> eff s s'.
(* the rules call [term] at the name of one of their terminator chains, never at [] *)
Definition term_eff (term : term_t) : Prop := forall ch s a b r s', ch <> [] -> term ch s a b = Ok (r, s') -> eff s s'.

Lemma no_rec_eff : rec_eff no_rec. Proof. intros s a b s' H. discriminate H. Qed.
Lemma no_term_eff : term_eff no_term. Proof. intros ch s a b r s' _ H. discriminate H. Qed.

Lemma r_hr_eff (An : A nm_hr) st sl el silent b st' : r_hr cfg st sl el silent = Ok (b, st') -> eff st st'.
Proof.
  unfold r_hr. intros H. repeat rstep H; rfinish H; try apply eff_refl.
  eapply eff_line, (eff_leaf _ nm_hr); [exact An | constructor | solve_plain].
Qed.

Lemma r_code_eff (An : A nm_code) st sl el silent b st' : r_code cfg st sl el silent = Ok (b, st') -> eff st st'.
Proof.
  unfold r_code. intros H. repeat rstep H; rfinish H; try apply eff_refl.
  eapply eff_line, (eff_leaf _ nm_code); [exact An | constructor | solve_plain].
Qed.

Lemma r_fence_eff (An : A nm_fence) st sl el silent b st' : r_fence cfg st sl el silent = Ok (b, st') -> eff st st'.
Proof.
  unfold r_fence. intros H. repeat rstep H; rfinish H; try apply eff_refl.
  all: eapply eff_line, (eff_leaf _ nm_fence); [exact An | constructor | solve_plain].
Qed.

Lemma r_html_block_eff (An : A nm_html_block) st sl el silent b st' :
  r_html_block cfg st sl el silent = Ok (b, st') -> eff st st'.
Proof.
  unfold r_html_block. intros H.
  do 3 rstep H. rstep H; [rfinish H; apply eff_refl|].
  destruct (c_html cfg) eqn:HT; cbn [negb] in H; [|rfinish H; apply eff_refl].
  repeat rstep H; rfinish H; try apply eff_refl.
  all: eapply eff_line, (eff_leaf _ nm_html_block); [exact An | constructor; exact HT | solve_plain].
Qed.

Lemma r_heading_eff (An : A nm_heading) st sl el silent b st' : r_heading cfg st sl el silent = Ok (b, st') -> eff st st'.
Proof.
  unfold r_heading. intros H.
  do 3 rstep H. rstep H; [rfinish H; apply eff_refl|]. rstep H; [rfinish H; apply eff_refl|].
  rstep H. rstep H; [rfinish H; apply eff_refl|].
  destruct (heading_level 8 (b_src st) (x + 1) x0 1) as [p level] eqn:HL.
  apply heading_level_spec in HL.
  destruct ((6 <? level) || ((p <? x0) && negb (is_space_at (b_src st) p))) eqn:C6; [rfinish H; apply eff_refl|].
  destruct silent; [rfinish H; apply eff_refl|].
  repeat rstep H; rfinish H.
  all: eapply eff_line, (eff_block _ nm_heading);
    [exact An | constructor; [left; reflexivity | lia] | constructor; right; left; left; reflexivity | solve_plain | solve_plain].
Qed.

Lemma para_scan_eff term (T : term_eff term) chain (CN : chain <> []) fuel st nl el cu r u st' :
  para_scan fuel term chain st nl el cu = Ok (r, u, st') ->
  eff st st' /\ (forall m l, u = Some (m, l) -> 1 <= l <= 2).
Proof.
  intros H. split; [revert H; apply (para_scan_rel eff eff_refl eff_trans); intros s a b t s' TE; exact (T _ _ _ _ _ _ CN TE)|].
  apply para_scan_scanned in H. remember (r, u, st') as res eqn:E. revert r u st' E.
  induction H as [| |st nl m' l' ? ? LV| |? ? ? ? ? ? _ _ IH]; intros r u st' E; try (injection E as <- <- <-); try discriminate.
  - intros m l [= <- <-]. exact LV.
  - exact (IH _ _ _ E).
Qed.

Lemma r_paragraph_eff (An : A nm_paragraph) term (T : term_eff term) st sl el silent b st' :
  r_paragraph term st sl el silent = Ok (b, st') -> eff st st'.
Proof.
  unfold r_paragraph. intros H.
  rbind H as [[nl u] st1] eqn:PS.
  eapply (para_scan_eff term T) in PS; [|intros CE; discriminate CE]. destruct PS as [PS _].
  rstep H. rfinish H.
  apply eff_parent, (eff_trans _ st1); [eapply eff_frame_l; [|exact PS]; frame_tac|].
  eapply eff_line, (eff_block _ nm_paragraph); [exact An | constructor | constructor; left; reflexivity | solve_plain | solve_plain].
Qed.

Lemma r_lheading_eff (An : A nm_lheading) term (T : term_eff term) st sl el silent b st' :
  r_lheading cfg term st sl el silent = Ok (b, st') -> eff st st'.
Proof.
  unfold r_lheading. intros H. rstep H. rstep H; [rfinish H; apply eff_refl|].
  rbind H as [[nl u] st1] eqn:PS.
  eapply (para_scan_eff term T) in PS; [|intros CE; discriminate CE]. destruct PS as [PS LV].
  assert (PS' : eff st st1) by (eapply eff_frame_l; [|exact PS]; frame_tac).
  destruct u as [[marker level]|]; [|rfinish H; exact PS'].
  specialize (LV _ _ eq_refl).
  rstep H. rfinish H.
  eapply eff_parent, (eff_trans _ st1 _ PS'), eff_line, (eff_block _ nm_lheading);
    [exact An | constructor; [right; reflexivity | lia] | constructor; right; left; right; reflexivity | solve_plain | solve_plain].
Qed.

Lemma r_reference_eff (An : A nm_reference) term (T : term_eff term) st sl el silent b st' :
  r_reference cfg rf cf term st sl el silent = Ok (b, st') -> eff st st'.
Proof.
  rewrite r_reference_eq. intros H.
  rstep H. rstep H; [rfinish H; apply eff_refl|].
  rbind H as [[nl u] st1] eqn:PS.
  eapply (para_scan_eff term T) in PS; [|intros CE; discriminate CE]. destruct PS as [PS _].
  assert (PS' : eff st st1) by (eapply eff_frame_l; [|exact PS]; frame_tac).
  rstep H.
  destruct (ref_parse rf cf (py_strip x0)) as [[[[[rawlabel label] title] href] lines]|] eqn:RP; [|rfinish H; exact PS'].
  destruct silent; rfinish H; [exact PS'|].
  destruct (ref_parse_inv _ _ _ _ _ _ _ _ RP) as (le & l0 & p1 & l1 & p2 & l2 & _ & _ & _ & -> & VL & _).
  apply (eff_trans _ st1 _ PS'). unfold ref_define. cbv zeta. apply eff_parent.
  (* with inline definitions on, a token is pushed between the two writes of env *)
  destruct (c_inline_defs cfg); [|eapply eff_define; [frame_tac | frame_tac | exact VL | reflexivity]].
  match goal with |- eff _ (bpush (st_line _ ?l) ?ty ?tag _ ?f <| b_env := ?e |>) =>
    apply (eff_trans _ (st_line (st1 <| b_env := e |>) l));
      [eapply eff_define; [frame_tac | frame_tac | exact VL | reflexivity]|];
    apply (eff_frame_r _ (bpush (st_line (st1 <| b_env := e |>) l) ty tag 0 f));
      [apply (eff_leaf _ nm_reference); [exact An | constructor | solve_plain] | frame_tac]
  end.
Qed.

Lemma bq_loop_eff term (T : term_eff term) : forall fuel st sv nl el lle r sv' st',
  bq_loop fuel term st sv nl el lle = Ok (r, sv', st') -> eff st st'.
Proof.
  induction fuel as [|f IH]; intros st sv nl el lle r sv' st' H; [discriminate H|].
  cbn [bq_loop] in H.
  destruct (negb (nl <? el)); [rfinish H; apply eff_refl|].
  do 3 rstep H. destruct (x1 <=? x0); [rfinish H; apply eff_refl|].
  rstep H.
  destruct ((x2 =? 62) && negb (x <? b_blkIndent st)).
  - do 3 rstep H.
    rbind H as st1 eqn:AB.
    apply apply_bq_frame in AB. eapply eff_frame_l; [exact AB | eapply IH; exact H].
  - destruct lle; [rfinish H; apply eff_refl|].
    rbind H as [t st1] eqn:TE.
    apply T in TE; [|discriminate].
    destruct t.
    + repeat rstep H; rfinish H; (eapply eff_frame_r; [exact TE | frame_tac]).
    + do 2 rstep H. eapply eff_trans; [exact TE|].
      eapply eff_frame_l; [|eapply IH; exact H]. frame_tac.
Qed.

Lemma r_blockquote_eff (An : A nm_blockquote) rec term (R : rec_eff rec) (T : term_eff term) st sl el silent b st' :
  r_blockquote cfg rec term st sl el silent = Ok (b, st') -> eff st st'.
Proof.
  cbv beta delta [r_blockquote]. intros H.
  do 4 lstep H. lstep H; [rfinish H; apply eff_refl|].
  rewrite match_some_62 in H.
  lstep H; [|rfinish H; apply eff_refl].
  destruct silent; [rfinish H; apply eff_refl|].
  do 4 lstep H.
  rbind H as st1 eqn:AB.
  apply apply_bq_frame in AB. lstep H. rlet H st2.
  rbind H as [[nextLine sv] st3] eqn:BL.
  apply (bq_loop_eff term T) in BL. lstep H. rlet H st4. lstep H. rlet H st5.
  rbind H as st6 eqn:RC.
  apply R in RC. rlet H st7. rlet H st8. rlet H st9.
  rbind H as st10 eqn:RT.
  apply restore_tables_frame in RT. rfinish H.
  apply (eff_trans _ st3); [apply (eff_frame_l _ _ _ AB), (eff_frame_l _ st2); [frame_tac | exact BL]|].
  (* blkIndent is 0 from the open token until the tables are restored, and put back last *)
  apply (eff_bracket st3 st4 st10); try frame_tac.
  - refine (eff_frame_r _ _ _ _ RT). apply (eff_touch st4 st7 st9); try frame_tac.
    + refine (eff_wrap st4 nm_blockquote _ _ _ _ _ st6 An _ _ _ RC); [constructor | solve_plain | solve_plain].
    + apply set_map_at_touched, Nat.le_refl.
  - intros [_ I]. split; [reflexivity | exact I].
Qed.

(* one item: open, the content between the change of the indents and its undoing, close, map of the open token *)
Lemma item_eff (An : A nm_list) st isOrd mc sl start pam indent ts' sc' st3 ts'' sc'' :
  eff (item_st2 st isOrd mc sl start pam indent ts' sc') st3 -> eff st (item_st6 st st3 mc sl ts'' sc'').
Proof.
  intros B. unfold item_st6. cbv zeta. eapply eff_retok; [|apply set_map_at_touched, Nat.le_refl].
  refine (eff_wrap st nm_list _ _ _ _ _ _ An pair_li _ _ (_ : eff (item_st1 st isOrd mc sl start pam) _)); [solve_plain | solve_plain|].
  apply (eff_bracket _ (item_st2 st isOrd mc sl start pam indent ts' sc') st3); try exact B; try frame_tac.
  intros [_ I]. split; [exact I | reflexivity].
Qed.

Lemma item_body_eff rec (R : rec_eff rec) st2 sl el blank st3 : item_body rec st2 sl el blank = Ok st3 -> eff st2 st3.
Proof.
  unfold item_body. intros H. rstep H. rstep H; [rfinish H; apply eff_frame; frame_tac | exact (R _ _ _ _ H)].
Qed.

Lemma item_next_eff term (T : term_eff term) st6 isOrd mc nl el start nx st7 :
  item_next cfg term st6 isOrd mc nl el start = Ok (nx, st7) -> eff st6 st7.
Proof.
  unfold item_next. intros H.
  rstep H; [rfinish H; apply eff_refl|]. rstep H. rstep H; [rfinish H; apply eff_refl|]. rstep H. rstep H; [rfinish H; apply eff_refl|].
  rbind H as [t s7] eqn:TE.
  apply T in TE; [|discriminate]. repeat rstep H; rfinish H; exact TE.
Qed.

Lemma list_items_eff (An : A nm_list) rec term (R : rec_eff rec) (T : term_eff term) :
  forall fuel st ord mc sl nl el pam start tight pee r t st',
    list_items cfg fuel rec term st ord mc sl nl el pam start tight pee = Ok (r, t, st') -> eff st st'.
Proof.
  induction fuel as [|f IH]; intros st ord mc sl nl el pam start tight pee r t st' H; [discriminate H|].
  rewrite list_items_S in H.
  destruct (negb (nl <? el)); [rfinish H; apply eff_refl|].
  rstep H. destruct x as [[[[[blank indent] ots] osc] ts'] sc'].
  rbind H as st3 eqn:BODY.
  rstep H. destruct x as [[pee' ts''] sc''].
  rbind H as [nx st7] eqn:NX.
  pose proof (eff_trans _ _ _ (item_eff An _ _ _ _ _ _ _ _ _ _ ts'' sc'' (item_body_eff rec R _ _ _ _ _ BODY)) (item_next_eff term T _ _ _ _ _ _ _ _ NX)) as E7.
  destruct nx as [[pam' start']|]; [exact (eff_trans _ _ _ E7 (IH _ _ _ _ _ _ _ _ _ _ _ _ _ H)) | rfinish H; exact E7].
Qed.

Lemma r_list_eff (An : A nm_list) rec term (R : rec_eff rec) (T : term_eff term) st sl el silent b st' :
  r_list cfg rec term st sl el silent = Ok (b, st') -> eff st st'.
Proof.
  rewrite r_list_eq. intros H.
  rstep H. destruct x as [[[[[ord pam] mv] mc] start]|]; [|rfinish H; apply eff_refl].
  destruct silent; [rfinish H; apply eff_refl|].
  rbind H as [[nl tight] st3] eqn:LI.
  apply (list_items_eff An rec term R T), (eff_frame_l (list_st1 st ord mc mv sl)) in LI; [|frame_tac]. rfinish H.
  assert (E5 : eff st (list_st5 st st3 ord mc sl nl (b_parentType (list_st1 st ord mc mv sl)))).
  { unfold list_st5. cbv zeta. apply eff_parent, eff_line_r, eff_retok; [|apply set_map_at_touched, Nat.le_refl].
    unfold list_st1 in LI. destruct ord; (refine (eff_wrap st nm_list _ _ _ _ _ st3 An _ _ _ LI); [constructor | solve_plain | solve_plain]). }
  unfold list_st6. destruct tight; [|exact E5].
  apply (eff_retok _ _ _ E5), mark_tight_touched; lia.
Qed.

Lemma push_cells_eff (An : A nm_table) oty cty tag (P : pair_kind nm_table oty cty tag) : forall aligns st cols a b sne,
  eff st (push_cells st oty cty tag aligns cols a b sne).
Proof.
  induction aligns as [|al aligns IH]; intros st cols a b sne; cbn [push_cells]; [apply eff_refl|].
  eapply eff_trans; [|apply IH].
  apply (eff_block _ nm_table); [exact An | exact P | constructor; right; right; reflexivity | solve_plain | solve_plain].
Qed.

Lemma row_eff (An : A nm_table) oty cty tag (P : pair_kind nm_table oty cty tag) st f f' aligns cols a b sne :
  plain f -> plain f' ->
  eff st (bpush (push_cells (bpush st s_tr_open s_tr 1 f) oty cty tag aligns cols a b sne) s_tr_close s_tr (-1) f').
Proof.
  intros F F'. apply (eff_wrap st nm_table _ _ _ f f' _ An pair_tr F F'), (push_cells_eff An _ _ _ P).
Qed.

(* rows after the first body row: tbody is open already and its index is handed on *)
Lemma table_rows_later_eff (An : A nm_table) term (T : term_eff term) : forall fuel st aligns sl nl el tbody r tb' st',
  sl + 2 < nl ->
  table_rows cfg fuel term st aligns sl nl el tbody = Ok (r, tb', st') -> eff st st' /\ tb' = tbody.
Proof.
  induction fuel as [|f IH]; intros st aligns sl nl el tbody r tb' st' G H; [discriminate H|].
  cbn [table_rows] in H.
  destruct (negb (nl <? el)); [rfinish H; split; [apply eff_refl | reflexivity]|].
  rstep H. rstep H; [rfinish H; split; [apply eff_refl | reflexivity]|].
  rbind H as [t st1] eqn:TE.
  apply T in TE; [|discriminate].
  destruct t; [rfinish H; split; [exact TE | reflexivity]|].
  rstep H. destruct (py_strip x0) as [|c0 lt]; [rfinish H; split; [exact TE | reflexivity]|].
  rstep H. rstep H; [rfinish H; split; [exact TE | reflexivity]|].
  assert (Ne : (nl =? sl + 2) = false) by lia. rewrite Ne in H.
  apply IH in H; [|lia]. destruct H as [E2 ->]. split; [|reflexivity].
  refine (eff_trans _ _ _ TE (eff_trans _ _ _ (row_eff An _ _ _ pair_td _ _ _ _ _ _ _ _ _ _) E2)); solve_plain.
Qed.

(* the loop entered at the first body line: either no row, or tbody_open pushed at some [s1] and rows after it *)
Lemma table_rows_first_eff (An : A nm_table) term (T : term_eff term) fuel st aligns sl el r tb' st' :
  table_rows cfg fuel term st aligns sl (sl + 2) el None = Ok (r, tb', st') ->
  (tb' = None /\ eff st st')
  \/ (exists s1 f, eff st s1 /\ tb' = Some (length (b_tokens s1)) /\ plain f
                   /\ eff (bpush s1 [116; 98; 111; 100; 121; 95; 111; 112; 101; 110] [116; 98; 111; 100; 121] 1 f) st').
Proof.
  destruct fuel as [|f]; intros H; [discriminate H|].
  cbn [table_rows] in H.
  destruct (negb (sl + 2 <? el)); [rfinish H; left; split; [reflexivity | apply eff_refl]|].
  rstep H. rstep H; [rfinish H; left; split; [reflexivity | apply eff_refl]|].
  rbind H as [t st1] eqn:TE.
  apply T in TE; [|discriminate].
  destruct t; [rfinish H; left; split; [reflexivity | exact TE]|].
  rstep H. destruct (py_strip x0) as [|c0 lt]; [rfinish H; left; split; [reflexivity | exact TE]|].
  rstep H. rstep H; [rfinish H; left; split; [reflexivity | exact TE]|].
  rewrite Z.eqb_refl in H.
  apply (table_rows_later_eff An term T) in H; [|lia]. destruct H as [E2 ->].
  right. eexists st1, _. split; [exact TE|]. split; [reflexivity|]. split; [|
  refine (eff_trans _ _ _ (row_eff An _ _ _ pair_td _ _ _ _ _ _ _ _ _ _) E2); solve_plain]. solve_plain.
Qed.

Lemma r_table_eff (An : A nm_table) term (T : term_eff term) st sl el silent b st' :
  r_table cfg term st sl el silent = Ok (b, st') -> eff st st'.
Proof.
  rewrite r_table_eq. intros H.
  rstep H. destruct x as [[aligns columns]|]; [|rfinish H; apply eff_refl].
  destruct silent; [rfinish H; apply eff_refl|].
  rbind H as [[nl tbody] st7] eqn:TR. rfinish H.
  assert (EH : eff (table_st1 st sl) (table_st6 st aligns columns sl)).
  { unfold table_st6. cbv zeta.
    refine (eff_wrap _ nm_table _ _ _ _ _ _ An pair_thead _ _ (_ : eff (bpush (table_st1 st sl) _ _ 1 (map_tok sl (sl + 1))) _)); [solve_plain | solve_plain|].
    apply (row_eff An _ _ _ pair_th); solve_plain. }
  unfold table_st10. cbv zeta. apply eff_line_r, eff_parent, eff_retok; [|apply set_map_at_touched, Nat.le_refl].
  apply (eff_frame_l _ (st_parent st nm_table)); [frame_tac|].
  refine (eff_wrap _ nm_table _ _ _ _ _ _ An pair_table _ _ (_ : eff (table_st1 st sl) _)); [solve_plain | solve_plain|].
  (* the body, closed if it was opened *)
  apply (eff_trans _ _ _ EH). apply (table_rows_first_eff An term T) in TR.
  destruct TR as [[-> E7] | (s1 & f & E1 & -> & F & E7)]; [exact E7|].
  apply (eff_trans _ _ _ E1).
  eapply eff_touch; [refine (eff_wrap s1 nm_table _ _ _ _ _ st7 An pair_tbody F _ E7); solve_plain | ..]; try frame_tac.
  apply set_map_at_touched, Nat.le_refl.
Qed.

Lemma apply_rule_eff rec term (R : rec_eff rec) (T : term_eff term) name (An : A name) st sl el silent b st' :
  apply_rule cfg rf cf rec term name st sl el silent = Ok (b, st') -> eff st st'.
Proof.
  revert b st'. apply apply_rule_cases; try (intros -> b st' H);
    [eapply r_table_eff | eapply r_code_eff | eapply r_fence_eff | eapply r_blockquote_eff | eapply r_hr_eff | eapply r_list_eff
    | eapply r_reference_eff | eapply r_html_block_eff | eapply r_heading_eff | eapply r_lheading_eff | eapply r_paragraph_eff
    | intros b st' H; rfinish H; apply eff_refl]; eassumption.
Qed.

Lemma run_chain_eff : forall names st l el b st', (forall n, In n names -> A n) ->
  run_chain cfg rf cf names st l el = Ok (b, st') -> eff st st'.
Proof.
  induction names as [|n names IH]; intros st l el b st' Sub H; cbn [run_chain] in H; [rfinish H; apply eff_refl|].
  rbind H as [r s1] eqn:AR.
  apply (apply_rule_eff no_rec no_term no_rec_eff no_term_eff) in AR; [|apply Sub; left; reflexivity].
  destruct r; [rfinish H; exact AR|].
  exact (eff_trans _ _ _ AR (IH _ _ _ _ _ (fun m Hm => Sub m (or_intror Hm)) H)).
Qed.

Context (AT : forall ch n, In n (c_term cfg ch) -> A n) (AR : forall n, In n (c_rules cfg) -> A n).

Lemma terminated_run ch s a b r s' : terminated cfg rf cf ch s a b = Ok (r, s') -> eff s s'.
Proof. intros H. exact (run_chain_eff _ _ _ _ _ _ (AT ch) H). Qed.
Lemma terminated_eff : term_eff (terminated cfg rf cf).
Proof. intros ch s a b r s' _. apply terminated_run. Qed.

Lemma try_rules_eff rec (R : rec_eff rec) : forall names st l el st', (forall n, In n names -> A n) ->
  try_rules cfg rf cf rec names st l el = Ok st' -> eff st st'.
Proof.
  induction names as [|n names IH]; intros st l el st' Sub H; cbn [try_rules] in H; [rfinish H; apply eff_refl|].
  rbind H as [r s1] eqn:AP.
  apply (apply_rule_eff rec _ R terminated_eff) in AP; [|apply Sub; left; reflexivity].
  destruct r; [rfinish H; exact AP|].
  exact (eff_trans _ _ _ AP (IH _ _ _ _ (fun m Hm => Sub m (or_intror Hm)) H)).
Qed.

Lemma tok_loop_eff rec (R : rec_eff rec) : forall fuel st line el hel st',
  tok_loop cfg rf cf fuel rec st line el hel = Ok st' -> eff st st'.
Proof.
  induction fuel as [|f IH]; intros st line el hel st' H; [discriminate H|].
  rewrite tok_loop_round in H.
  destruct (negb (line <? el)); [rfinish H; apply eff_refl|].
  rstep H. destruct x as [l [|]]; [|rfinish H; apply eff_frame; frame_tac].
  rbind H as st2 eqn:TR.
  apply (try_rules_eff rec R _ _ _ _ _ AR), eff_line in TR.
  rstep H. destruct x as [l' hel'].
  apply IH in H. apply (eff_trans _ _ _ TR). refine (eff_frame_l _ _ _ _ H). frame_tac.
Qed.

Lemma tokenize_eff : forall depth, rec_eff (tokenize cfg rf cf depth).
Proof.
  induction depth as [|d IH]; intros s a b s' H; [discriminate H|].
  cbn [tokenize] in H. exact (tok_loop_eff _ IH _ _ _ _ _ _ H).
Qed.

Theorem block_parse_eff src env toks st :
  block_parse cfg rf cf src env toks = Ok st -> eff (state_init src env toks) st.
Proof.
  unfold block_parse. intros H.
  destruct src as [|c src']; [rfinish H; apply eff_refl | exact (tokenize_eff _ _ _ _ _ H)].
Qed.

End Eff.
