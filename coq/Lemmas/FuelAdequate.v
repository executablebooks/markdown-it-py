(* The inner scans of the block model run on loop-local fuel and answer with an ordinary value when
   it is used up.  This file proves that this never shows: above a bound computed from the
   arguments (the distance the scan can still travel) the answer does not depend on the fuel, and
   the fuel each call site passes lies above that bound.  So no result of the block model is an
   artefact of a fuel constant. *)
From MD Require Import Base.Py Base.Str Model.Utils Model.StateBlock Model.Helpers Model.Block Lemmas.StrLemmas.
From Coq Require Import ZifyBool.

Ltac fwalk IH :=
  cbv zeta;
  repeat (match goal with
          | |- bind ?m _ = bind ?m _ => destruct m eqn:?; cbn [bind]; [|reflexivity|reflexivity]
          | |- (if ?b then _ else _) = (if ?b then _ else _) => destruct b eqn:?
          | |- match ?x with _ => _ end = match ?x with _ => _ end => destruct x eqn:?
          | |- _ => reflexivity
          | |- _ => apply IH; lia
          end; cbv zeta).
Ltac fuel_ind f1 f2 IH := induction f1 as [|f1 IH]; intros; [lia|]; destruct f2 as [|f2]; [lia|].

Lemma skip_empty_lines_fuel : forall f1 f2 st from,
  (Z.to_nat (b_lineMax st - from) < f1)%nat -> (Z.to_nat (b_lineMax st - from) < f2)%nat ->
  skip_empty_lines f1 st from = skip_empty_lines f2 st from.
Proof. fuel_ind f1 f2 IH. cbn [skip_empty_lines]. fwalk IH. Qed.

Lemma skip_while_fuel p : forall f1 f2 src pos,
  (Z.to_nat (len src - pos) < f1)%nat -> (Z.to_nat (len src - pos) < f2)%nat ->
  skip_while f1 p src pos = skip_while f2 p src pos.
Proof.
  fuel_ind f1 f2 IH. cbn [skip_while].
  destruct (char_at src pos) as [c|] eqn:E; [|reflexivity].
  destruct ((0 <=? pos) && p c) eqn:G; [|reflexivity].
  pose proof (char_at_lt src pos c E ltac:(lia)). apply IH; lia.
Qed.

Lemma skip_back_fuel p : forall f1 f2 src pos mn,
  (Z.to_nat (pos - mn) < f1)%nat -> (Z.to_nat (pos - mn) < f2)%nat ->
  skip_back f1 p src pos mn = skip_back f2 p src pos mn.
Proof. fuel_ind f1 f2 IH. cbn [skip_back]. fwalk IH. Qed.

Lemma gl_scan_fuel : forall f1 f2 src first last ls li ind ts bs,
  (Z.to_nat (last - first) < f1)%nat -> (Z.to_nat (last - first) < f2)%nat ->
  gl_scan f1 src first last ls li ind ts bs = gl_scan f2 src first last ls li ind ts bs.
Proof. fuel_ind f1 f2 IH. cbn [gl_scan]. fwalk IH. Qed.

Lemma get_lines_loop_fuel : forall f1 f2 st line endl indent keep,
  (Z.to_nat (endl - line) < f1)%nat -> (Z.to_nat (endl - line) < f2)%nat ->
  get_lines_loop f1 st line endl indent keep = get_lines_loop f2 st line endl indent keep.
Proof.
  fuel_ind f1 f2 IH. cbn [get_lines_loop]. fwalk IH.
  rewrite (IH f2) by lia. reflexivity.
Qed.

Lemma code_scan_fuel cfg : forall f1 f2 st nl el last,
  (Z.to_nat (el - nl) < f1)%nat -> (Z.to_nat (el - nl) < f2)%nat ->
  code_scan cfg f1 st nl el last = code_scan cfg f2 st nl el last.
Proof. fuel_ind f1 f2 IH. cbn [code_scan]. fwalk IH. Qed.

Lemma fence_scan_fuel cfg : forall f1 f2 st nl el mk ln,
  (Z.to_nat (el - nl) < f1)%nat -> (Z.to_nat (el - nl) < f2)%nat ->
  fence_scan cfg f1 st nl el mk ln = fence_scan cfg f2 st nl el mk ln.
Proof. fuel_ind f1 f2 IH. cbn [fence_scan]. fwalk IH. Qed.

Lemma hr_scan_fuel : forall f1 f2 src pos mx mk cnt,
  (Z.to_nat (mx - pos) < f1)%nat -> (Z.to_nat (mx - pos) < f2)%nat ->
  hr_scan f1 src pos mx mk cnt = hr_scan f2 src pos mx mk cnt.
Proof. fuel_ind f1 f2 IH. cbn [hr_scan]. fwalk IH. Qed.

Lemma heading_level_fuel : forall f1 f2 src pos mx level,
  (Z.to_nat (7 - level) < f1)%nat -> (Z.to_nat (7 - level) < f2)%nat ->
  heading_level f1 src pos mx level = heading_level f2 src pos mx level.
Proof. fuel_ind f1 f2 IH. cbn [heading_level]. fwalk IH. Qed.

Lemma html_scan_fuel : forall f1 f2 st closer nl el,
  (Z.to_nat (el - nl) < f1)%nat -> (Z.to_nat (el - nl) < f2)%nat ->
  html_scan f1 st closer nl el = html_scan f2 st closer nl el.
Proof. fuel_ind f1 f2 IH. cbn [html_scan]. fwalk IH. Qed.

Lemma ref_prescan_fuel : forall f1 f2 src pos mx,
  (Z.to_nat (mx - pos) < f1)%nat -> (Z.to_nat (mx - pos) < f2)%nat ->
  ref_prescan f1 src pos mx = ref_prescan f2 src pos mx.
Proof. fuel_ind f1 f2 IH. cbn [ref_prescan]. fwalk IH. Qed.

Lemma ref_label_fuel : forall f1 f2 s pos mx lines,
  (Z.to_nat (mx - pos) < f1)%nat -> (Z.to_nat (mx - pos) < f2)%nat ->
  ref_label f1 s pos mx lines = ref_label f2 s pos mx lines.
Proof. fuel_ind f1 f2 IH. cbn [ref_label]. fwalk IH. Qed.

Lemma skip_ws_nl_fuel : forall f1 f2 s pos mx lines,
  (Z.to_nat (mx - pos) < f1)%nat -> (Z.to_nat (mx - pos) < f2)%nat ->
  skip_ws_nl f1 s pos mx lines = skip_ws_nl f2 s pos mx lines.
Proof. fuel_ind f1 f2 IH. cbn [skip_ws_nl]. fwalk IH. Qed.

Lemma skip_sp_fuel : forall f1 f2 s pos mx,
  (Z.to_nat (mx - pos) < f1)%nat -> (Z.to_nat (mx - pos) < f2)%nat ->
  skip_sp f1 s pos mx = skip_sp f2 s pos mx.
Proof. fuel_ind f1 f2 IH. cbn [skip_sp]. fwalk IH. Qed.

Lemma bq_blanks_fuel : forall f1 f2 src pos mx off bs adj,
  (Z.to_nat (mx - pos) < f1)%nat -> (Z.to_nat (mx - pos) < f2)%nat ->
  bq_blanks f1 src pos mx off bs adj = bq_blanks f2 src pos mx off bs adj.
Proof. fuel_ind f1 f2 IH. cbn [bq_blanks]. fwalk IH. Qed.

Lemma ordered_digits_fuel : forall f1 f2 src start pos mx,
  (Z.to_nat (start + 10 - pos) < f1)%nat -> (Z.to_nat (start + 10 - pos) < f2)%nat ->
  ordered_digits f1 src start pos mx = ordered_digits f2 src start pos mx.
Proof. fuel_ind f1 f2 IH. cbn [ordered_digits]. fwalk IH. Qed.

Lemma mark_tight_fuel : forall f1 f2 tokens i length level,
  (Z.to_nat (length - i) < f1)%nat -> (Z.to_nat (length - i) < f2)%nat ->
  mark_tight f1 tokens i length level = mark_tight f2 tokens i length level.
Proof. fuel_ind f1 f2 IH. cbn [mark_tight]. fwalk IH. Qed.

Lemma list_blanks_fuel : forall f1 f2 src pos mx off bs,
  (Z.to_nat (mx - pos) < f1)%nat -> (Z.to_nat (mx - pos) < f2)%nat ->
  list_blanks f1 src pos mx off bs = list_blanks f2 src pos mx off bs.
Proof. fuel_ind f1 f2 IH. cbn [list_blanks]. fwalk IH. Qed.

Lemma esc_split_fuel : forall f1 f2 s pos mx lastPos esc cur acc,
  (Z.to_nat (mx - pos) < f1)%nat -> (Z.to_nat (mx - pos) < f2)%nat ->
  esc_split f1 s pos mx lastPos esc cur acc = esc_split f2 s pos mx lastPos esc cur acc.
Proof. fuel_ind f1 f2 IH. cbn [esc_split]. fwalk IH. Qed.

Lemma delim_chars_fuel : forall f1 f2 src pos mx,
  (Z.to_nat (mx - pos) < f1)%nat -> (Z.to_nat (mx - pos) < f2)%nat ->
  delim_chars f1 src pos mx = delim_chars f2 src pos mx.
Proof. fuel_ind f1 f2 IH. cbn [delim_chars]. fwalk IH. Qed.

Lemma dest_angle_fuel : forall f1 f2 s start pos mx,
  (Z.to_nat (mx - pos) < f1)%nat -> (Z.to_nat (mx - pos) < f2)%nat ->
  dest_angle f1 s start pos mx = dest_angle f2 s start pos mx.
Proof. fuel_ind f1 f2 IH. cbn [dest_angle]. fwalk IH. Qed.

Lemma dest_bare_fuel : forall f1 f2 s pos mx level,
  (Z.to_nat (mx - pos) < f1)%nat -> (Z.to_nat (mx - pos) < f2)%nat ->
  dest_bare f1 s pos mx level = dest_bare f2 s pos mx level.
Proof. fuel_ind f1 f2 IH. cbn [dest_bare]. fwalk IH. Qed.

Lemma title_loop_fuel : forall f1 f2 s start pos mx marker lines,
  (Z.to_nat (mx - pos) < f1)%nat -> (Z.to_nat (mx - pos) < f2)%nat ->
  title_loop f1 s start pos mx marker lines = title_loop f2 s start pos mx marker lines.
Proof. fuel_ind f1 f2 IH. cbn [title_loop]. fwalk IH. Qed.

(* every scan over the source is called with fuel S (length src), a position 0 <= pos and a limit
   maximum <= len src (the line marks of the table invariant RI of Lemmas/NoRaise.v): above the bound *)
Lemma src_fuel_above_bound (src : str) pos mx : 0 <= pos -> mx <= len src -> (Z.to_nat (mx - pos) < S (length src))%nat.
Proof. unfold len. lia. Qed.
(* every scan over lines is called with fuel S (endLine - startLine) at line startLine + 1 (or startLine) *)
Lemma line_fuel_above_bound sl el : (Z.to_nat (el - (sl + 1)) < S (Z.to_nat (el - sl)))%nat.
Proof. lia. Qed.

Lemma hr_scan_call src pos mx mk : 0 <= pos -> mx <= len src -> forall f, (length src < f)%nat ->
  hr_scan f src (pos + 1) mx mk 1 = hr_scan (S (length src)) src (pos + 1) mx mk 1.
Proof. intros H0 H1 f Hf. apply hr_scan_fuel; unfold len in *; lia. Qed.
Lemma skip_spaces_call src pos : 0 <= pos -> forall f, (length src < f)%nat ->
  skip_while f is_space src pos = skip_spaces src pos.
Proof. intros H0 f Hf. unfold skip_spaces. apply skip_while_fuel; unfold len; lia. Qed.
Lemma code_scan_call cfg st sl el : forall f, (Z.to_nat (el - sl) < f)%nat ->
  code_scan cfg f st (sl + 1) el (sl + 1) = code_scan cfg (S (Z.to_nat (el - sl))) st (sl + 1) el (sl + 1).
Proof. intros f Hf. apply code_scan_fuel; lia. Qed.
Lemma heading_level_call src pos mx : forall f, (7 <= f)%nat ->
  heading_level f src pos mx 1 = heading_level 8 src pos mx 1.
Proof. intros f Hf. apply heading_level_fuel; lia. Qed.
Lemma ordered_digits_call src start mx : forall f, (10 <= f)%nat ->
  ordered_digits f src start (start + 1) mx = ordered_digits 12 src start (start + 1) mx.
Proof. intros f Hf. apply ordered_digits_fuel; lia. Qed.
