(* C15: building a SyntaxTreeNode from a token stream and flattening it returns the
   identical token sequence.  What the builder does is stated once, as the relation [built]; the round trip here and the
   walk order in TreeWalk.v are inductions over it. *)
From MD Require Import Base.Py Model.Token Model.Tree.

Lemma fix_flat_map {A B} (f : A -> list B) l :
  (fix go (l : list A) : list B := match l with [] => [] | x :: l' => f x ++ go l' end) l = flat_map f l.
Proof. induction l as [|x l IH]; [reflexivity|]. cbn [flat_map]. rewrite <- IH. reflexivity. Qed.

Lemma to_tokens_root ch : to_tokens (NRoot ch) = flat_map to_tokens ch.
Proof. cbn [to_tokens]. apply fix_flat_map. Qed.

Lemma to_tokens_nest op cl ch : to_tokens (NNest op cl ch) = op :: flat_map to_tokens ch ++ [cl].
Proof. cbn [to_tokens]. rewrite fix_flat_map. reflexivity. Qed.

Lemma middle_wrap (o c : token) inner : middle (o :: inner ++ [c]) = inner.
Proof. unfold middle. cbn [tl]. apply removelast_last. Qed.

Lemma take_group_0 l acc : take_group l 0 acc = Some (rev acc, l).
Proof. destruct l; reflexivity. Qed.

Lemma take_group_shape l : forall k acc g r, k <> 0 -> take_group l k acc = Some (g, r) ->
  exists g0 c, g = rev acc ++ g0 ++ [c] /\ l = g0 ++ c :: r
    /\ (0 < k -> Forall (fun t => -1 <= tnesting t) g0 -> tnesting c < 0).
Proof.
  induction l as [|t l IH]; intros k acc g r Hk H; cbn [take_group] in H;
    rewrite (proj2 (Z.eqb_neq k 0) Hk) in H; [discriminate|].
  destruct (Z.eq_dec (k + tnesting t) 0) as [E|N].
  - rewrite E, take_group_0 in H. injection H as <- <-. exists [], t.
    split; [reflexivity|]. split; [reflexivity|]. intros Pk _. lia.
  - destruct (IH _ _ _ _ N H) as (g0 & c & Eg & El & Hc). exists (t :: g0), c. split; [|split].
    + rewrite Eg. cbn [rev app]. rewrite <- app_assoc. reflexivity.
    + rewrite El. reflexivity.
    + intros Pk F. apply Forall_cons_iff in F. destruct F as [Ft Fg]. apply Hc; [lia | exact Fg].
Qed.

(* What the builder does with a stream: a token of nesting 0 becomes a leaf over its own children, a token of
   nesting 1 takes the group g0 up to its closer c.  The builder finds c by counting, not by looking at its nesting,
   so all that is known of c without a hypothesis on the stream is the conditional fact of take_group_shape: if no
   token of g0 lowers the counter by more than one, c lowers it.  The round trip does not need it; the walk order
   gets its premise from wfw. *)
Inductive built : list token -> list node -> Prop :=
| built_nil : built [] []
| built_leaf t rest kids sibs :
    tnesting t = 0 ->
    built (match tchildren t with Some l => l | None => [] end) kids -> built rest sibs ->
    built (t :: rest) (NLeaf t kids :: sibs)
| built_nest t g0 c rest kids sibs :
    tnesting t = 1 ->
    (Forall (fun x => -1 <= tnesting x) g0 -> tnesting c < 0) ->
    built g0 kids -> built rest sibs ->
    built (t :: g0 ++ c :: rest) (NNest t c kids :: sibs).

Lemma build_children_built fuel : forall ts kids, build_children fuel ts = Ok kids -> built ts kids.
Proof.
  induction fuel as [|fuel IH]; intros ts kids H; [discriminate|]. cbn [build_children] in H.
  destruct ts as [|t rest]; [injection H as <-; constructor|].
  destruct (tnesting t =? 0) eqn:E0.
  - destruct (match tchildren t with Some (x :: l) => build_children fuel (x :: l) | _ => Ok [] end) as [k1|e|] eqn:BK;
      cbn [bind] in H; try discriminate.
    destruct (build_children fuel rest) as [sibs|e|] eqn:BS; cbn [bind] in H; try discriminate.
    injection H as <-. apply built_leaf; [lia | | apply IH, BS].
    destruct (tchildren t) as [[|x l]|].
    + injection BK as <-. constructor.
    + apply IH, BK.
    + injection BK as <-. constructor.
  - destruct (tnesting t =? 1) eqn:E1; cbn [negb] in H; [|discriminate].
    destruct (take_group rest 1 [t]) as [[grp rest']|] eqn:TG; [|discriminate].
    apply take_group_shape in TG; [|lia]. destruct TG as (g0 & c & -> & -> & Hc). cbn [rev app] in H.
    rewrite middle_wrap, app_comm_cons, last_last in H.
    destruct (build_children fuel g0) as [k1|e|] eqn:BK; cbn [bind] in H; try discriminate.
    destruct (build_children fuel rest') as [sibs|e|] eqn:BS; cbn [bind] in H; try discriminate.
    injection H as <-. apply built_nest; [lia | exact (Hc ltac:(lia)) | apply IH, BK | apply IH, BS].
Qed.

Lemma first_middle_last (t : token) (g' : list token) :
  g' <> [] -> t :: removelast g' ++ [last g' t] = t :: g'.
Proof. intros H. f_equal. symmetry. apply app_removelast_last. exact H. Qed.

Lemma last_default_irrelevant (g' : list token) (a b : token) : g' <> [] -> last g' a = last g' b.
Proof.
  induction g' as [|x l IH]; [congruence|]. intros _. destruct l as [|y l]; [reflexivity|].
  cbn [last]. apply IH. discriminate.
Qed.

Theorem build_children_roundtrip fuel : forall ts kids,
  build_children fuel ts = Ok kids -> flat_map to_tokens kids = ts.
Proof.
  intros ts kids H. apply build_children_built in H.
  induction H as [| t rest kids sibs _ _ _ _ IHs | t g0 c rest kids sibs _ _ _ IHk _ IHs].
  - reflexivity.
  - cbn [flat_map to_tokens app]. rewrite IHs. reflexivity.
  - cbn [flat_map]. rewrite to_tokens_nest, IHk, IHs. cbn [app]. rewrite <- app_assoc. reflexivity.
Qed.

Theorem tree_roundtrip ts n : build ts = Ok n -> to_tokens n = ts.
Proof.
  unfold build. destruct (build_children (S (tsize_list ts)) ts) as [kids|e|] eqn:B; cbn [bind]; intros H; try discriminate.
  injection H as <-. rewrite to_tokens_root. eapply build_children_roundtrip, B.
Qed.
