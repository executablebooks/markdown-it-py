(* C11: registration order.  Where at / before / after / push put a rule:
   the existing rules keep their relative order, enabled flags, functions and
   chains; the new rule sits immediately before / after the FIRST rule named
   by the reference (duplicates allowed), or at the end. *)
From MD Require Import Base.Py Model.Ruler Lemmas.RulerSets.

Section Order.
Context {F : Type}.
Notation rule := (rule F).
Notation ruler := (ruler F).

Lemma insert_at_app (a : list rule) x b : insert_at (length a) x (a ++ b) = a ++ x :: b.
Proof. induction a as [|y a IH]; simpl; [destruct b; reflexivity | rewrite IH; reflexivity]. Qed.

Lemma insert_at_S_app (a : list rule) y x b :
  insert_at (S (length a)) x (a ++ y :: b) = a ++ y :: x :: b.
Proof.
  replace (S (length a)) with (length (a ++ [y])) by (rewrite app_length; simpl; lia).
  replace (a ++ y :: b) with ((a ++ [y]) ++ b) by (rewrite <- app_assoc; reflexivity).
  rewrite insert_at_app, <- app_assoc. reflexivity.
Qed.

Theorem before_order (r : ruler) ref name fn alt i :
  find (rules r) ref = Some i ->
  exists a x b,
    rules r = a ++ x :: b /\ rname x = ref /\ (forall y, In y a -> rname y <> ref) /\
    step r (OpBefore ref name fn alt) =
      (mkRuler (a ++ mkRule name true fn alt :: x :: b) None, Ok ONone).
Proof.
  intros H. destruct (find_split _ _ _ H) as [a [x [b [Hrs [Hi [Hx Ha]]]]]].
  exists a, x, b. split; [exact Hrs|]. split; [exact Hx|]. split; [exact Ha|].
  unfold step. rewrite H. rewrite Hrs, Hi, insert_at_app. reflexivity.
Qed.

Theorem after_order (r : ruler) ref name fn alt i :
  find (rules r) ref = Some i ->
  exists a x b,
    rules r = a ++ x :: b /\ rname x = ref /\ (forall y, In y a -> rname y <> ref) /\
    step r (OpAfter ref name fn alt) =
      (mkRuler (a ++ x :: mkRule name true fn alt :: b) None, Ok ONone).
Proof.
  intros H. destruct (find_split _ _ _ H) as [a [x [b [Hrs [Hi [Hx Ha]]]]]].
  exists a, x, b. split; [exact Hrs|]. split; [exact Hx|]. split; [exact Ha|].
  unfold step. rewrite H. rewrite Hrs, Hi, insert_at_S_app. reflexivity.
Qed.

Theorem at_order (r : ruler) name fn alt i :
  find (rules r) name = Some i ->
  exists a x b,
    rules r = a ++ x :: b /\ rname x = name /\ (forall y, In y a -> rname y <> name) /\
    step r (OpAt name fn alt) =
      (mkRuler (a ++ mkRule name (renabled x) fn alt :: b) None, Ok ONone).
Proof.
  intros H. destruct (find_split _ _ _ H) as [a [x [b [Hrs [Hi [Hx Ha]]]]]].
  exists a, x, b. split; [exact Hrs|]. split; [exact Hx|]. split; [exact Ha|].
  unfold step. rewrite H. rewrite Hrs, Hi, upd_nth_app, Hx. reflexivity.
Qed.

Theorem push_order (r : ruler) name fn alt :
  step r (OpPush name fn alt) =
    (mkRuler (rules r ++ [mkRule name true fn alt]) None, Ok ONone).
Proof. reflexivity. Qed.

Lemma compile_chain_app (a b : list rule) c :
  compile_chain (a ++ b) c = compile_chain a c ++ compile_chain b c.
Proof. unfold compile_chain. rewrite filter_app, map_app. reflexivity. Qed.

Theorem before_applied (r : ruler) ref name fn alt i c :
  find (rules r) ref = Some i ->
  exists a b,
    rules r = a ++ b /\
    compile_chain (rules (fst (step r (OpBefore ref name fn alt)))) c =
      compile_chain a c ++ (if in_chain c (mkRule name true fn alt) then [fn] else [])
                        ++ compile_chain b c.
Proof.
  intros H. destruct (before_order r ref name fn alt i H) as [a [x [b [Hrs [_ [_ Hs]]]]]].
  exists a, (x :: b). split; [exact Hrs|]. rewrite Hs. cbn [fst rules].
  rewrite compile_chain_app. f_equal.
  change (mkRule name true fn alt :: x :: b) with ([mkRule name true fn alt] ++ x :: b).
  rewrite compile_chain_app. f_equal.
  unfold compile_chain. cbn [filter renabled andb].
  destruct (in_chain c (mkRule name true fn alt)); reflexivity.
Qed.

Lemma compile_chain_one (x : rule) c :
  compile_chain [x] c = if renabled x && in_chain c x then [rfn x] else [].
Proof. unfold compile_chain. cbn [filter]. destruct (renabled x && in_chain c x); reflexivity. Qed.

Theorem after_applied (r : ruler) ref name fn alt i c :
  find (rules r) ref = Some i ->
  exists a x b,
    rules r = a ++ x :: b /\ rname x = ref /\
    compile_chain (rules (fst (step r (OpAfter ref name fn alt)))) c =
      compile_chain (a ++ [x]) c ++ (if in_chain c (mkRule name true fn alt) then [fn] else [])
                                 ++ compile_chain b c.
Proof.
  intros H. destruct (after_order r ref name fn alt i H) as [a [x [b [Hrs [Hx [_ Hs]]]]]].
  exists a, x, b. split; [exact Hrs|]. split; [exact Hx|]. rewrite Hs. cbn [fst rules].
  change (a ++ x :: mkRule name true fn alt :: b)
    with (a ++ [x] ++ [mkRule name true fn alt] ++ b).
  rewrite !compile_chain_app, <- app_assoc. f_equal. f_equal. f_equal.
  apply compile_chain_one.
Qed.

Theorem push_applied (r : ruler) name fn alt c :
  compile_chain (rules (fst (step r (OpPush name fn alt)))) c =
    compile_chain (rules r) c ++ (if in_chain c (mkRule name true fn alt) then [fn] else []).
Proof. cbn [step fst rules]. rewrite compile_chain_app. f_equal. apply compile_chain_one. Qed.

Theorem at_applied (r : ruler) name fn alt i c :
  find (rules r) name = Some i ->
  exists a x b,
    rules r = a ++ x :: b /\ rname x = name /\
    compile_chain (rules (fst (step r (OpAt name fn alt)))) c =
      compile_chain a c
      ++ (if renabled x && in_chain c (mkRule name (renabled x) fn alt) then [fn] else [])
      ++ compile_chain b c.
Proof.
  intros H. destruct (at_order r name fn alt i H) as [a [x [b [Hrs [Hx [_ Hs]]]]]].
  exists a, x, b. split; [exact Hrs|]. split; [exact Hx|]. rewrite Hs. cbn [fst rules].
  change (a ++ mkRule name (renabled x) fn alt :: b)
    with (a ++ [mkRule name (renabled x) fn alt] ++ b).
  rewrite !compile_chain_app, compile_chain_one. reflexivity.
Qed.

Theorem registered_is_reported (r : ruler) (o : op F) name :
  match o with
  | OpBefore _ n _ _ | OpAfter _ n _ _ | OpPush n _ _ => n = name
  | _ => False
  end ->
  let '(r', out) := step r o in
  match out with
  | Ok _ => In name (all_names r') /\ In name (active_names r')
  | _ => r' = r
  end.
Proof.
  assert (A : forall a (x : rule) b, renabled x = true ->
            In (rname x) (map rname (a ++ x :: b)) /\
            In (rname x) (map rname (filter renabled (a ++ x :: b)))).
  { intros a x b Hx. split.
    - rewrite map_app. apply in_or_app. right. left. reflexivity.
    - rewrite filter_app, map_app. apply in_or_app. right. cbn [filter]. rewrite Hx.
      left. reflexivity. }
  destruct o as [n fn alt|ref n fn alt|ref n fn alt|n fn alt| | | | | |]; intros Hn; try contradiction; subst n.
  - destruct (find (rules r) ref) as [i|] eqn:E.
    + destruct (before_order r ref name fn alt i E) as [a [x [b [_ [_ [_ Hs]]]]]].
      rewrite Hs. unfold all_names, active_names, active. cbn [rules].
      exact (A a (mkRule name true fn alt) (x :: b) eq_refl).
    + unfold step. rewrite E. reflexivity.
  - destruct (find (rules r) ref) as [i|] eqn:E.
    + destruct (after_order r ref name fn alt i E) as [a [x [b [_ [_ [_ Hs]]]]]].
      rewrite Hs. unfold all_names, active_names, active. cbn [rules].
      replace (a ++ x :: mkRule name true fn alt :: b)
        with ((a ++ [x]) ++ mkRule name true fn alt :: b) by (rewrite <- app_assoc; reflexivity).
      exact (A (a ++ [x]) (mkRule name true fn alt) b eq_refl).
    + unfold step. rewrite E. reflexivity.
  - cbn [step]. unfold all_names, active_names, active. cbn [rules].
    exact (A (rules r) (mkRule name true fn alt) [] eq_refl).
Qed.

End Order.
