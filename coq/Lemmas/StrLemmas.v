(* Index / slice facts on [str], used by the block- and inline-level lemmas; lengths, and reading inside a
   concatenation. *)
From MD Require Import Base.Py Base.Str.
From Coq Require Import ZifyBool.

Lemma skipn_cons_nth {A} (l : list A) k x : nth_error l k = Some x -> skipn k l = x :: skipn (S k) l.
Proof.
  revert l; induction k as [|k IH]; intros [|y l] H; cbn in *; try discriminate.
  - injection H as ->. reflexivity.
  - apply IH, H.
Qed.

Lemma slice_nonneg {A} (s : list A) a b : 0 <= a -> 0 <= b ->
  slice s a b = if Z.min b (len s) <=? Z.min a (len s) then []
                else firstn (Z.to_nat (Z.min b (len s) - Z.min a (len s))) (skipn (Z.to_nat (Z.min a (len s))) s).
Proof.
  intros Ha Hb. unfold slice, clamp.
  assert (E1 : (a <? 0) = false) by lia. assert (E2 : (b <? 0) = false) by lia. rewrite E1, E2. reflexivity.
Qed.

Lemma py_idx_get (s : str) pos c : 0 <= pos -> py_idx s pos = Ok c -> nth_error s (Z.to_nat pos) = Some c /\ pos < len s.
Proof.
  intros Hp H. unfold py_idx, get in H. assert (E : (pos <? 0) = false) by lia. cbv zeta in H. rewrite !E in H.
  destruct (nth_error s (Z.to_nat pos)) eqn:N; [|discriminate]. injection H as ->. split; [reflexivity|].
  assert (Z.to_nat pos < length s)%nat by (apply nth_error_Some; congruence). unfold len. lia.
Qed.

Lemma slice_cons (s : str) pos m c :
  0 <= pos -> pos < m -> m <= len s -> py_idx s pos = Ok c -> slice s pos m = c :: slice s (pos + 1) m.
Proof.
  intros Hp Hm Hl H. destruct (py_idx_get s pos c Hp H) as [N L].
  rewrite !slice_nonneg by lia. rewrite !Z.min_l by lia.
  assert (E1 : (m <=? pos) = false) by lia. rewrite E1.
  rewrite (skipn_cons_nth s _ c N).
  replace (Z.to_nat (m - pos)) with (S (Z.to_nat (m - (pos + 1)))) by lia. cbn [firstn]. f_equal.
  replace (Z.to_nat (pos + 1)) with (S (Z.to_nat pos)) by lia.
  destruct (m <=? pos + 1) eqn:E2; [|reflexivity].
  replace (Z.to_nat (m - (pos + 1))) with O by lia. reflexivity.
Qed.

Lemma slice_empty {A} (s : list A) a b : 0 <= b -> b <= a -> slice s a b = [].
Proof.
  intros Hb Ha. rewrite slice_nonneg by lia.
  assert (E : (Z.min b (len s) <=? Z.min a (len s)) = true) by lia. rewrite E. reflexivity.
Qed.

Lemma nth_firstn {A} : forall (n k : nat) (l : list A), (k < n)%nat -> nth_error (firstn n l) k = nth_error l k.
Proof.
  induction n as [|n IH]; intros k l H; [lia|]. destruct l as [|a l]; [destruct k; reflexivity|].
  destruct k as [|k]; [reflexivity|]. cbn. apply IH. lia.
Qed.

Lemma nth_skipn {A} : forall (n k : nat) (l : list A), nth_error (skipn n l) k = nth_error l (n + k).
Proof.
  induction n as [|n IH]; intros k l; [reflexivity|]. destruct l as [|a l]; [destruct k; reflexivity|].
  cbn. apply IH.
Qed.

Lemma char_at_nonneg (s : str) p : 0 <= p -> char_at s p = nth_error s (Z.to_nat p).
Proof. intros H. unfold char_at, get. cbv zeta. assert (E : (p <? 0) = false) by lia. rewrite !E. reflexivity. Qed.

Lemma char_at_lt (s : str) p c : char_at s p = Some c -> 0 <= p -> p < len s.
Proof.
  intros E H. rewrite char_at_nonneg in E by exact H.
  assert (X : nth_error s (Z.to_nat p) <> None) by congruence. apply nth_error_Some in X. unfold len. lia.
Qed.

Lemma len_app {A} (a b : list A) : len (a ++ b) = len a + len b.
Proof. unfold len. rewrite app_length. lia. Qed.
Lemma len_cons {A} (x : A) l : len (x :: l) = 1 + len l.
Proof. unfold len. cbn [length]. lia. Qed.
Lemma len_nonneg {A} (l : list A) : 0 <= len l.
Proof. unfold len. lia. Qed.

Lemma nth_error_app_mid {A} (pre : list A) c rest : nth_error (pre ++ c :: rest) (length pre) = Some c.
Proof. induction pre as [|x pre IH]; cbn; [reflexivity | exact IH]. Qed.

Lemma py_idx_app (pre : str) c rest : py_idx (pre ++ c :: rest) (len pre) = Ok c.
Proof.
  unfold py_idx, get. pose proof (len_nonneg pre). assert (E : (len pre <? 0) = false) by lia. cbv zeta. rewrite !E.
  unfold len. rewrite Nat2Z.id, nth_error_app_mid. reflexivity.
Qed.

Lemma py_idx_app2 (pre : str) c d rest : py_idx (pre ++ c :: d :: rest) (len pre + 1) = Ok d.
Proof.
  replace (pre ++ c :: d :: rest) with ((pre ++ [c]) ++ d :: rest) by (rewrite <- app_assoc; reflexivity).
  replace (len pre + 1) with (len (pre ++ [c])) by (rewrite len_app; unfold len; cbn; lia).
  apply py_idx_app.
Qed.

Lemma skipn_app_len {A} (pre rest : list A) : skipn (length pre) (pre ++ rest) = rest.
Proof. induction pre as [|x pre IH]; cbn; [reflexivity | exact IH]. Qed.

Lemma firstn_app_len {A} (a b : list A) : firstn (length a) (a ++ b) = a.
Proof. induction a as [|x a IH]; cbn; [reflexivity | f_equal; exact IH]. Qed.

Lemma slice_app_mid {A} (pre r rest : list A) : slice (pre ++ r ++ rest) (len pre) (len pre + len r) = r.
Proof.
  pose proof (len_nonneg pre). pose proof (len_nonneg r). pose proof (len_nonneg rest).
  rewrite slice_nonneg by lia. rewrite !len_app.
  rewrite !Z.min_l by lia.
  destruct (len pre + len r <=? len pre) eqn:E.
  - assert (Hr : len r = 0) by lia. destruct r as [|x r]; [reflexivity|]. rewrite len_cons in Hr. pose proof (len_nonneg r). lia.
  - replace (Z.to_nat (len pre + len r - len pre)) with (length r) by (unfold len; lia).
    replace (Z.to_nat (len pre)) with (length pre) by (unfold len; lia).
    rewrite skipn_app_len. apply firstn_app_len.
Qed.
