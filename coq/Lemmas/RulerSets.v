(* C11: the reported set follows the obvious set semantics of the calls, and
   unknown names never change what is registered. *)
From MD Require Import Base.Py Model.Ruler.

Section Sets.
Context {F : Type}.
Notation rule := (rule F).
Notation ruler := (ruler F).

Definition known (all : list str) (n : str) : bool := mem_str n all.

(* names the loop gets to process before it returns or raises *)
Fixpoint takeknown (all names : list str) : list str :=
  match names with
  | [] => []
  | n :: ns => if known all n then n :: takeknown all ns else []
  end.

Definition processed (ign : bool) (all names : list str) : list str :=
  if ign then filter (known all) names else takeknown all names.

Definition raises (ign : bool) (all names : list str) : bool :=
  negb ign && negb (forallb (known all) names).

Definition mark (v : bool) (P : list str) (x : rule) : rule :=
  if mem_str (rname x) P then set_enabled v x else x.

Lemma find_from_None (rs : list rule) n i :
  find_from rs n i = None <-> mem_str n (map rname rs) = false.
Proof.
  revert i; induction rs as [|r rs IH]; simpl; intros i; [tauto|].
  destruct (str_eqb_spec (rname r) n) as [E|N].
  - subst. rewrite str_eqb_refl. simpl. split; discriminate.
  - destruct (str_eqb_spec n (rname r)) as [E'|_]; [congruence|]. simpl. apply IH.
Qed.

Lemma find_None (rs : list rule) n : find rs n = None <-> known (map rname rs) n = false.
Proof. apply find_from_None. Qed.

Lemma find_from_split (rs : list rule) n k i :
  find_from rs n k = Some i ->
  exists a x b, rs = a ++ x :: b /\ (i = k + length a)%nat /\ rname x = n /\
                (forall y, In y a -> rname y <> n).
Proof.
  revert k; induction rs as [|r rs IH]; simpl; intros k H; [discriminate|].
  destruct (str_eqb_spec (rname r) n) as [E|N].
  - injection H as <-. exists [], r, rs. simpl.
    split; [reflexivity|]. split; [lia|]. split; [exact E|]. intros y [].
  - apply IH in H. destruct H as [a [x [b [Hrs [Hi [Hx Ha]]]]]].
    exists (r :: a), x, b. simpl. split; [rewrite Hrs; reflexivity|].
    split; [lia|]. split; [exact Hx|].
    intros y [Hy|Hy]; [subst y; exact N | apply Ha, Hy].
Qed.

Lemma find_split (rs : list rule) n i :
  find rs n = Some i ->
  exists a x b, rs = a ++ x :: b /\ i = length a /\ rname x = n /\
                (forall y, In y a -> rname y <> n).
Proof.
  intros H. apply find_from_split in H.
  destruct H as [a [x [b [H1 [H2 [H3 H4]]]]]]. exists a, x, b. auto.
Qed.

Lemma upd_nth_app (a : list rule) f x b : upd_nth (length a) f (a ++ x :: b) = a ++ f x :: b.
Proof. induction a as [|y a IH]; simpl; [reflexivity | rewrite IH; reflexivity]. Qed.

Lemma find_Some_upd (rs : list rule) n i (f : rule -> rule) :
  NoDup (map rname rs) -> find rs n = Some i ->
  upd_nth i f rs = map (fun x => if str_eqb (rname x) n then f x else x) rs.
Proof.
  intros ND H. destruct (find_split _ _ _ H) as [a [x [b [-> [-> [Hx Ha]]]]]].
  rewrite upd_nth_app, map_app. cbn [map]. rewrite Hx, str_eqb_refl.
  rewrite map_app in ND. apply NoDup_remove_2 in ND.
  f_equal; [|f_equal]; rewrite <- map_id at 1; apply map_ext_in; intros y Hy;
    destruct (str_eqb_spec (rname y) n) as [Ey|]; try reflexivity; exfalso.
  - exact (Ha y Hy Ey).
  - apply ND, in_or_app; right. rewrite Hx, <- Ey. apply in_map, Hy.
Qed.

Lemma find_Some_known (rs : list rule) n i : find rs n = Some i -> known (map rname rs) n = true.
Proof.
  intros H. destruct (known (map rname rs) n) eqn:E; [reflexivity|].
  apply find_None in E. congruence.
Qed.

Lemma map_mark_names v P (rs : list rule) : map rname (map (mark v P) rs) = map rname rs.
Proof.
  rewrite map_map. apply map_ext. intros x. unfold mark. destruct (mem_str _ _); reflexivity.
Qed.

Lemma mark_step v n P (rs : list rule) :
  map (fun x => if str_eqb (rname x) n then set_enabled v x else x) (map (mark v P) rs)
  = map (mark v (P ++ [n])) rs.
Proof.
  rewrite map_map. apply map_ext. intros x. unfold mark, mem_str.
  rewrite existsb_app. simpl. rewrite orb_false_r.
  destruct (existsb (str_eqb (rname x)) P) eqn:E; simpl.
  - destruct (str_eqb (rname x) n); reflexivity.
  - reflexivity.
Qed.

Lemma mark_nil v (rs : list rule) : map (mark v []) rs = rs.
Proof. rewrite <- (map_id rs) at 2. apply map_ext. reflexivity. Qed.

(* generalised loop invariant: [acc] is what has been processed so far *)
Lemma toggle_loop_spec v ign names : forall (rs0 : list rule) acc,
  NoDup (map rname rs0) ->
  let all := map rname rs0 in
  toggle_loop v names ign (map (mark v acc) rs0) acc =
  (map (mark v (acc ++ processed ign all names)) rs0,
   if raises ign all names then Raise KeyError
   else Ok (acc ++ processed ign all names)).
Proof.
  induction names as [|n ns IH]; intros rs0 acc ND all; simpl.
  - unfold processed, raises; simpl. destruct ign; simpl; rewrite app_nil_r; reflexivity.
  - destruct (find (map (mark v acc) rs0) n) as [i|] eqn:Ef.
    + pose proof (find_Some_known _ _ _ Ef) as Kn. rewrite map_mark_names in Kn.
      rewrite (find_Some_upd _ n i (set_enabled v)); [| rewrite map_mark_names; exact ND | exact Ef].
      rewrite mark_step. rewrite (IH rs0 (acc ++ [n]) ND).
      fold all in Kn |- *. unfold processed, raises. simpl. rewrite Kn. simpl.
      destruct ign; simpl; rewrite <- !app_assoc; reflexivity.
    + apply find_None in Ef. rewrite map_mark_names in Ef. fold all in Ef.
      unfold processed, raises. simpl. rewrite Ef. simpl.
      destruct ign; simpl.
      * rewrite (IH rs0 acc ND). unfold processed, raises. simpl. reflexivity.
      * rewrite app_nil_r. reflexivity.
Qed.

Theorem toggle_sets v names ign (r : ruler) :
  NoDup (all_names r) ->
  let all := all_names r in
  let P := processed ign all names in
  toggle v names ign r =
  (mkRuler (map (mark v P) (rules r)) None,
   if raises ign all names then Raise KeyError else Ok (ONames P)).
Proof.
  intros ND all P. unfold toggle.
  pose proof (toggle_loop_spec v ign names (rules r) [] ND) as H.
  rewrite mark_nil in H. simpl in H. rewrite H.
  unfold P, all, all_names. destruct (raises ign (map rname (rules r)) names); reflexivity.
Qed.

Lemma in_processed ign all names n :
  raises ign all names = false ->
  (In n (processed ign all names) <-> In n names /\ In n all).
Proof.
  unfold raises, processed. destruct ign; simpl.
  - intros _. rewrite filter_In. unfold known. rewrite mem_str_In. tauto.
  - rewrite negb_false_iff. intros Hall. rewrite forallb_forall in Hall.
    assert (takeknown all names = names) as ->.
    { induction names as [|m ms IH]; simpl; [reflexivity|].
      rewrite (Hall m (or_introl eq_refl)). f_equal. apply IH. intros x Hx; apply Hall; right; exact Hx. }
    split; [intros H; split; [exact H | apply mem_str_In, Hall, H] | tauto].
Qed.

Lemma active_mark v P (rs : list rule) n :
  In n (map rname (filter renabled (map (mark v P) rs))) <->
  (exists x, In x rs /\ rname x = n /\ (if mem_str n P then v else renabled x) = true).
Proof.
  rewrite in_map_iff. split.
  - intros [y [Hn Hy]]. apply filter_In in Hy. destruct Hy as [Hy En].
    apply in_map_iff in Hy. destruct Hy as [x [Hx Hin]]. exists x. split; [exact Hin|].
    subst y. unfold mark in *. destruct (mem_str (rname x) P) eqn:E; simpl in *; subst n; rewrite E; auto.
  - intros [x [Hin [Hn Hv]]]. exists (mark v P x). split.
    + unfold mark. destruct (mem_str (rname x) P); simpl; exact Hn.
    + apply filter_In. split; [apply in_map, Hin|].
      unfold mark. subst n. destruct (mem_str (rname x) P); simpl; exact Hv.
Qed.

Lemma NoDup_name_unique (rs : list rule) x y :
  NoDup (map rname rs) -> In x rs -> In y rs -> rname x = rname y -> x = y.
Proof.
  induction rs as [|r rs IH]; simpl; intros ND Hx Hy E; [tauto|].
  inversion ND as [|? ? Hn ND']; subst.
  destruct Hx as [->|Hx], Hy as [->|Hy]; auto.
  - exfalso; apply Hn; rewrite E; apply in_map, Hy.
  - exfalso; apply Hn; rewrite <- E; apply in_map, Hx.
Qed.

Lemma active_sub_all (r : ruler) n : In n (active_names r) -> In n (all_names r).
Proof.
  unfold active_names, active, all_names. intros H. apply in_map_iff in H.
  destruct H as [x [<- Hx]]. apply filter_In in Hx. apply in_map, Hx.
Qed.

(* The reported set after enable (v = true) or disable (v = false): the known
   names among [names] get the flag v, every other rule keeps its own.  The
   three calls are this statement for v and the starting flags.  The first conjunct says that the case distinction
   can be made (names are lists of code points): the three readings need it to pass from not-A to their own wording. *)
Lemma toggle_active v names ign (r : ruler) n :
  NoDup (all_names r) -> raises ign (all_names r) names = false ->
  let A := In n names /\ In n (all_names r) in
  (A \/ ~ A) /\
  (In n (active_names (fst (toggle v names ign r))) <-> (A /\ v = true) \/ (~ A /\ In n (active_names r))).
Proof.
  intros ND NR A. subst A. rewrite (toggle_sets v names ign r ND).
  unfold active_names, active. cbn [fst rules]. rewrite active_mark.
  pose proof (in_processed ign (all_names r) names n NR) as HP. unfold all_names in *.
  destruct (mem_str n (processed ign (map rname (rules r)) names)) eqn:E.
  - apply mem_str_In, HP in E. split; [left; exact E|]. split.
    + intros [x [_ [_ Hv]]]. left; split; assumption.
    + intros [[_ Hv]|[NA _]]; [|contradiction]. destruct E as [_ E].
      apply in_map_iff in E. destruct E as [x [Hn Hx]]. exists x; auto.
  - assert (NP : ~ (In n names /\ In n (map rname (rules r)))).
    { rewrite <- HP, <- mem_str_In, E. discriminate. }
    split; [right; exact NP|]. split.
    + intros [x [Hx [Hn He]]]. right. split; [exact NP|].
      apply in_map_iff. exists x. rewrite filter_In. auto.
    + intros [[H _]|[_ H]]; [contradiction|]. apply in_map_iff in H. destruct H as [x [Hn Hx]].
      apply filter_In in Hx. exists x; tauto.
Qed.

Theorem enable_set names ign (r : ruler) n :
  NoDup (all_names r) -> raises ign (all_names r) names = false ->
  let r' := fst (step r (OpEnable names ign)) in
  (In n (active_names r') <-> In n (active_names r) \/ (In n names /\ In n (all_names r))).
Proof.
  intros ND NR r'. subst r'. destruct (toggle_active true names ign r n ND NR) as [D H].
  cbn [step]. apply (iff_trans H). tauto.
Qed.

Theorem disable_set names ign (r : ruler) n :
  NoDup (all_names r) -> raises ign (all_names r) names = false ->
  let r' := fst (step r (OpDisable names ign)) in
  (In n (active_names r') <-> In n (active_names r) /\ ~ In n names).
Proof.
  intros ND NR r'. subst r'. destruct (toggle_active false names ign r n ND NR) as [D H].
  cbn [step]. apply (iff_trans H). pose proof (active_sub_all r n). intuition discriminate.
Qed.

(* enableOnly: the same call from the state in which every flag is off *)
Theorem enableOnly_set names ign (r : ruler) n :
  NoDup (all_names r) -> raises ign (all_names r) names = false ->
  let r' := fst (step r (OpEnableOnly names ign)) in
  (In n (active_names r') <-> In n names /\ In n (all_names r)).
Proof.
  intros ND NR r'. subst r'. cbn [step].
  set (r0 := mkRuler (map (set_enabled false) (rules r)) (cache r)).
  assert (A0 : all_names r0 = all_names r).
  { unfold all_names, r0; simpl. rewrite map_map. reflexivity. }
  assert (N0 : ~ In n (active_names r0)).
  { unfold active_names, active, r0; cbn [rules]. rewrite in_map_iff. intros [x [_ Hx]].
    apply filter_In in Hx. destruct Hx as [Hx He]. apply in_map_iff in Hx.
    destruct Hx as [y [<- _]]. discriminate. }
  destruct (toggle_active true names ign r0 n) as [D H]; rewrite ?A0; try assumption.
  rewrite A0 in *. apply (iff_trans H). tauto.
Qed.

Lemma map_upd_nth {B} (g : rule -> B) f i (rs : list rule) :
  (forall x, g (f x) = g x) -> map g (upd_nth i f rs) = map g rs.
Proof.
  intros Hf. revert i; induction rs as [|x rs IH]; intros [|i]; simpl; try reflexivity.
  - rewrite Hf; reflexivity.
  - rewrite IH; reflexivity.
Qed.

Lemma map_toggle_loop {B} (g : rule -> B) v ign names : (forall x, g (set_enabled v x) = g x) ->
  forall (rs : list rule) acc, map g (fst (toggle_loop v names ign rs acc)) = map g rs.
Proof.
  intros Hg. induction names as [|n ns IH]; intros rs acc; simpl; [reflexivity|].
  destruct (find rs n); [|destruct ign; [apply IH | reflexivity]].
  rewrite IH. apply map_upd_nth, Hg.
Qed.

(* Whatever the names, whether it raises or not: the three calls never add,
   remove, rename or re-target a registered rule (they only flip flags). *)
Theorem toggle_frame (r : ruler) (o : op F) :
  match o with OpEnable _ _ | OpEnableOnly _ _ | OpDisable _ _ => True | _ => False end ->
  let r' := fst (step r o) in
  map rname (rules r') = map rname (rules r) /\
  map rfn (rules r') = map rfn (rules r) /\
  map ralt (rules r') = map ralt (rules r).
Proof.
  intros Ho r'. subst r'.
  assert (T : forall B (g : rule -> B), (forall v x, g (set_enabled v x) = g x) ->
              map g (rules (fst (step r o))) = map g (rules r)).
  { intros B g Hg.
    assert (L : forall v names ign (r0 : ruler),
              map g (rules (fst (toggle v names ign r0))) = map g (rules r0)).
    { intros v names ign r0. unfold toggle.
      pose proof (map_toggle_loop g v ign names (Hg v) (rules r0) []) as H.
      destruct (toggle_loop v names ign (rules r0) []); exact H. }
    destruct o; try contradiction; simpl; rewrite L; try reflexivity.
    simpl. rewrite map_map. apply map_ext, Hg. }
  repeat split; apply T; reflexivity.
Qed.

Theorem unknown_ref_noop (r : ruler) (o : op F) :
  match o with
  | OpAt n _ _ | OpBefore n _ _ _ | OpAfter n _ _ _ => known (all_names r) n = false
  | _ => False
  end -> step r o = (r, Raise KeyError).
Proof.
  destruct o; try contradiction; simpl; intros H; apply find_None in H; rewrite H; reflexivity.
Qed.

Lemma mark_mark v1 v2 P (x : rule) : mark v2 P (mark v1 P x) = mark v2 P x.
Proof.
  unfold mark. destruct (mem_str (rname x) P) eqn:E; simpl; rewrite E; reflexivity.
Qed.

Theorem toggle_last_wins v1 v2 names ign (r : ruler) :
  NoDup (all_names r) ->
  toggle v2 names ign (fst (toggle v1 names ign r)) = toggle v2 names ign r.
Proof.
  intros ND. rewrite (toggle_sets v1 names ign r ND). cbn [fst].
  rewrite (toggle_sets v2 names ign r ND).
  rewrite toggle_sets; unfold all_names; cbn [rules]; rewrite map_mark_names; [|exact ND].
  rewrite map_map. f_equal. f_equal. apply map_ext. intros x. apply mark_mark.
Qed.

Theorem toggle_idempotent v names ign (r : ruler) :
  NoDup (all_names r) ->
  toggle v names ign (fst (toggle v names ign r)) = toggle v names ign r.
Proof. apply toggle_last_wins. Qed.

End Sets.
