(* C09, inline level: backslash-escaping makes any text literal.  For EVERY text made of plain runs
   (characters the text rule does not stop at) and ASCII punctuation characters, the source in which
   every punctuation character is preceded by a backslash is tokenized into text / text_special
   tokens whose concatenated content is exactly the text, whatever other inline rules are enabled
   after the escape rule; and renderInline of that source is escapeHtml of the text. *)
From RecordUpdate Require Import RecordUpdate.
From MD Require Import Base.Py Base.Str Model.Token Model.Utils Model.StateBlock Model.Render Model.Core
     Model.Inline Lemmas.StrLemmas Lemmas.InlineLemmas.
From MD Require Import Gen.Tables.
From Coq Require Import ZifyBool.

Inductive seg := SPlain (r : str) | SEsc (c : Z).

Definition plain_char (c : Z) : Prop := mem_z c text_terminators = false.
Definition esc_char (c : Z) : Prop := mem_z c escaped_table = true.

Definition seg_src (s : seg) : str := match s with SPlain r => r | SEsc c => [92; c] end.
Definition seg_text (s : seg) : str := match s with SPlain r => r | SEsc c => [c] end.
Definition src_of (l : list seg) : str := concat (map seg_src l).
Definition text_of (l : list seg) : str := concat (map seg_text l).

(* plain runs are non-empty, made of plain characters, and never adjacent (a run ends at a backslash or at the end) *)
Fixpoint wf (l : list seg) : Prop :=
  match l with
  | [] => True
  | SPlain r :: rest => r <> [] /\ Forall plain_char r /\ (match rest with SPlain _ :: _ => False | _ => True end) /\ wf rest
  | SEsc c :: rest => esc_char c /\ wf rest
  end.

Lemma find_terminator_run : forall r rest pos, Forall plain_char r ->
  find_terminator (r ++ rest) pos = find_terminator rest (pos + len r).
Proof.
  induction r as [|c r IH]; intros rest pos H; cbn [app].
  - unfold len. cbn. rewrite Z.add_0_r. reflexivity.
  - inversion H as [|? ? Hc Hr]; subst. cbn [find_terminator]. unfold plain_char in Hc. rewrite Hc.
    rewrite IH by exact Hr. rewrite len_cons. f_equal. lia.
Qed.

Lemma esc_not_lf c : esc_char c -> c <> 10.
Proof. unfold esc_char. intros H E. subst c. vm_compute in H. discriminate H. Qed.

Lemma esc_src_starts (l : list seg) : wf l ->
  src_of l = [] \/ (exists c rest, src_of l = c :: rest /\ (mem_z c text_terminators = true \/ exists r l', l = SPlain r :: l')).
Proof.
  destruct l as [|[r|c] l]; intros H; [left; reflexivity| |].
  - right. destruct H as (Hne & _). destruct r as [|x r]; [contradiction Hne; reflexivity|].
    exists x, (r ++ src_of l). split; [reflexivity|]. right. eexists _, _. reflexivity.
  - right. exists 92, (c :: src_of l). split; [reflexivity | left; reflexivity].
Qed.

Definition contents (ts : list token) : str := concat (map tcontent ts).
Definition flat (st : istate) : str := contents (i_tokens st) ++ i_pending st.
Definition textlike (t : token) : Prop := (ttype t = s_text \/ ttype t = s_text_special_) /\ tnesting t = 0.
(* only text and text_special tokens, no delimiter anywhere: every meta entry None, the one delimiter list empty;
   on such a state each post-processing rule but fragments_join is the identity *)
Definition inv (st : istate) : Prop :=
  Forall textlike (i_tokens st) /\ Forall (eq None) (i_meta st) /\ i_dstore st = [[]] /\ i_cur st = O.

Arguments contents : simpl never.

Lemma contents_app a b : contents (a ++ b) = contents a ++ contents b.
Proof. unfold contents. rewrite map_app, concat_app. reflexivity. Qed.

Lemma src_empty : forall l, wf l -> src_of l = [] -> l = [].
Proof.
  intros [|[r|c] l] H E; [reflexivity| |].
  - destruct H as (Hne & _). destruct r; [contradiction Hne; reflexivity | discriminate E].
  - discriminate E.
Qed.

Lemma wf_len : forall l, wf l -> (length l <= length (src_of l))%nat.
Proof.
  induction l as [|[r|c] l IH]; intros H; [cbn; lia| |].
  - destruct H as (Hne & _ & _ & Hw). specialize (IH Hw). unfold src_of in *. cbn [map concat seg_src length].
    rewrite app_length. destruct r; [contradiction Hne; reflexivity | cbn [length]; lia].
  - destruct H as (_ & Hw). specialize (IH Hw). unfold src_of in *. cbn [map concat seg_src length app]. lia.
Qed.

Lemma flush_flat st : flat (flushed st) = flat st /\ i_pending (flushed st) = [] /\ (inv st -> inv (flushed st)).
Proof.
  unfold flushed. destruct (i_pending st) as [|x p] eqn:E.
  - split; [reflexivity | split; [exact E | exact (fun H => H)]].
  - split; [|split].
    + unfold flat, push_pending. cbn. rewrite contents_app. unfold contents at 2. cbn. rewrite E, !app_nil_r. reflexivity.
    + reflexivity.
    + intros (A & B & C & D). unfold inv, push_pending. cbn. repeat split; try assumption.
      apply Forall_app. split; [exact A|]. constructor; [|constructor]. split; [left; reflexivity | reflexivity].
Qed.

Lemma contents_cons t ts : contents (t :: ts) = tcontent t ++ contents ts.
Proof. reflexivity. Qed.

Lemma fj_contents_carry : forall ts lvl carry, ts <> [] ->
  contents (fj ts lvl carry) = (match carry with Some c => c | None => [] end) ++ contents ts.
Proof.
  induction ts as [|t rest IH]; intros lvl carry Hne; [contradiction Hne; reflexivity|]. cbn [fj].
  destruct rest as [|n rest'].
  - rewrite !contents_cons. destruct carry; cbn; rewrite ?app_nil_r; reflexivity.
  - destruct (str_eqb (ttype t) s_text && str_eqb (ttype n) s_text).
    + rewrite IH by discriminate. rewrite (contents_cons t). destruct carry; cbn; rewrite ?app_assoc; reflexivity.
    + rewrite contents_cons, IH by discriminate. rewrite (contents_cons t (n :: rest')). destruct carry; cbn; rewrite ?app_assoc; reflexivity.
Qed.

Lemma fj_contents : forall ts lvl, contents (fj ts lvl None) = contents ts.
Proof. intros [|t ts] lvl; [reflexivity|]. apply (fj_contents_carry (t :: ts) lvl None). discriminate. Qed.

Lemma each_meta_none (f : istate -> nat -> res istate) : forall metas st, Forall (eq None) metas -> each_meta f metas st = Ok st.
Proof. induction metas as [|m metas IH]; intros st H; [reflexivity|]. inversion H; subst. cbn [each_meta]. apply IH. assumption. Qed.

Section Esc.
Context (cfg : icfg) (rf cf lt : str -> str) (F : ifuncs).

Context (pre post : list str).
Context (HR : ic_rules cfg = pre ++ n_escape :: post).
Context (Hpre : Forall (fun n => n = n_text \/ n = n_linkify \/ n = n_newline) pre).
Context (Htext : In n_text pre).
Context (Hlink : ic_linkify cfg = false).
Context (Hnest : 0 < ic_maxNesting cfg).

Definition at_pos (st : istate) (before after : str) : Prop :=
  i_src st = before ++ after /\ i_pos st = len before /\ i_posMax st = len (before ++ after) /\ i_level st = 0.

Lemma r_text_run st before r rest :
  at_pos st before (r ++ rest) -> r <> [] -> Forall plain_char r ->
  (rest = [] \/ exists c rest', rest = c :: rest' /\ mem_z c text_terminators = true) ->
  r_text st false = Ok (true, st <| i_pending := i_pending st ++ r |> <| i_pos := len before + len r |>).
Proof.
  intros (Hs & Hp & Hm & _) Hne Hr Hrest. unfold r_text.
  assert (SK : skipn (Z.to_nat (i_pos st)) (i_src st) = r ++ rest).
  { rewrite Hs, Hp. unfold len. rewrite Nat2Z.id. apply skipn_app_len. }
  rewrite SK, find_terminator_run by exact Hr.
  assert (Hl : 0 < len r) by (destruct r; [contradiction Hne; reflexivity | rewrite len_cons; pose proof (len_nonneg r); lia]).
  assert (P : match find_terminator rest (i_pos st + len r) with Some p => p | None => i_posMax st end = len before + len r).
  { destruct Hrest as [-> | (c & rest' & -> & Hc)].
    - cbn [find_terminator]. rewrite Hm, !len_app. unfold len at 3. cbn. lia.
    - cbn [find_terminator]. rewrite Hc. rewrite Hp. reflexivity. }
  rewrite P. assert (E : (len before + len r =? i_pos st) = false) by lia. rewrite E.
  rewrite Hs, Hp. rewrite slice_app_mid. reflexivity.
Qed.

Definition esc_tok (c : Z) (lvl : Z) : token :=
  set_info (set_markup (set_content (set_level (new_token s_text_special_ [] 0) lvl) [c]) [92; c]) s_escape.

Lemma r_escape_pair st before c rest :
  at_pos st before (92 :: c :: rest) -> esc_char c ->
  r_escape st false = Ok (true, pushed (flushed st) (esc_tok c (i_level st)) None <| i_pos := len before + 1 + 1 |>).
Proof.
  intros (Hs & Hp & Hm & _) Hc. unfold r_escape.
  rewrite Hs, Hp, py_idx_app. cbn [bind]. change (negb (92 =? 92)) with false. cbv iota.
  pose proof (len_nonneg before). pose proof (len_nonneg rest).
  assert (E1 : (i_posMax st <=? len before + 1) = false) by (rewrite Hm, len_app, !len_cons; lia). rewrite E1.
  rewrite py_idx_app2. cbn [bind].
  assert (E2 : (c =? 10) = false) by (pose proof (esc_not_lf c Hc); lia). rewrite E2.
  unfold esc_char in Hc. rewrite Hc, ipush_leaf_eq. reflexivity.
Qed.

Lemma r_text_at_terminator st before c rest :
  at_pos st before (c :: rest) -> mem_z c text_terminators = true -> r_text st false = Ok (false, st).
Proof.
  intros (Hs & Hp & _) Hc. unfold r_text.
  assert (SK : skipn (Z.to_nat (i_pos st)) (i_src st) = c :: rest).
  { rewrite Hs, Hp. unfold len. rewrite Nat2Z.id. apply skipn_app_len. }
  rewrite SK. cbn [find_terminator]. rewrite Hc. rewrite Z.eqb_refl. reflexivity.
Qed.

Lemma r_linkify_off st : r_linkify cfg st false = Ok (false, st).
Proof. unfold r_linkify. rewrite Hlink. reflexivity. Qed.

Lemma r_newline_other st before c rest :
  at_pos st before (c :: rest) -> c <> 10 -> r_newline st false = Ok (false, st).
Proof.
  intros (Hs & Hp & _) Hc. unfold r_newline. rewrite Hs, Hp, py_idx_app. cbn [bind].
  assert (E : (c =? 10) = false) by lia. rewrite E. reflexivity.
Qed.

Lemma first_rule_pre l more st r :
  Forall (fun n => iapply cfg rf cf lt F n st false = Ok (false, st) \/ iapply cfg rf cf lt F n st false = Ok (true, r)) l ->
  first_rule cfg rf cf lt F more st false false = Ok (true, r) ->
  first_rule cfg rf cf lt F (l ++ more) st false false = Ok (true, r).
Proof.
  intros Hl Hm. induction Hl as [|n l [E|E] _ IH]; [exact Hm| |]; cbn [app first_rule]; cbv iota; rewrite E; [exact IH | reflexivity].
Qed.

Lemma pre_rule_fails st before c rest n : at_pos st before (c :: rest) -> c <> 10 -> n = n_linkify \/ n = n_newline ->
  iapply cfg rf cf lt F n st false = Ok (false, st).
Proof. intros HA Hc [-> | ->]; [exact (r_linkify_off st) | exact (r_newline_other st before c rest HA Hc)]. Qed.

Lemma first_rule_run st before r rest :
  at_pos st before (r ++ rest) -> r <> [] -> Forall plain_char r ->
  (rest = [] \/ exists c rest', rest = c :: rest' /\ mem_z c text_terminators = true) ->
  first_rule cfg rf cf lt F (ic_rules cfg) st false false
  = Ok (true, st <| i_pending := i_pending st ++ r |> <| i_pos := len before + len r |>).
Proof.
  intros HA Hne Hr Hrest. pose proof (r_text_run st before r rest HA Hne Hr Hrest) as RT.
  destruct (in_split _ _ Htext) as (l1 & l2 & Ep). rewrite HR, Ep, <- app_assoc. apply first_rule_pre.
  - rewrite Ep in Hpre. apply Forall_app in Hpre. eapply Forall_impl; [|exact (proj1 Hpre)]. intros n [-> | Hn]; [right; exact RT | left].
    destruct r as [|x r]; [contradiction Hne; reflexivity|]. inversion Hr as [|? ? Hx _]; subst.
    apply (pre_rule_fails st before x (r ++ rest) n HA); [|exact Hn]. intros ->. vm_compute in Hx. discriminate Hx.
  - cbn [app first_rule]. cbv iota. change (iapply cfg rf cf lt F n_text st false) with (r_text st false). rewrite RT. reflexivity.
Qed.

Lemma first_rule_esc st before c rest :
  at_pos st before (92 :: c :: rest) -> esc_char c ->
  first_rule cfg rf cf lt F (ic_rules cfg) st false false
  = Ok (true, pushed (flushed st) (esc_tok c (i_level st)) None <| i_pos := len before + 1 + 1 |>).
Proof.
  intros HA Hc. pose proof (r_escape_pair st before c rest HA Hc) as E. rewrite HR. apply first_rule_pre.
  - eapply Forall_impl; [|exact Hpre]. intros n [-> | Hn]; left.
    + exact (r_text_at_terminator st before 92 (c :: rest) HA eq_refl).
    + apply (pre_rule_fails st before 92 (c :: rest) n HA); [discriminate | exact Hn].
  - cbn [first_rule]. cbv iota. change (iapply cfg rf cf lt F n_escape st false) with (r_escape st false). rewrite E. reflexivity.
Qed.

Lemma first_rule_seg st before sg rest : wf (sg :: rest) -> at_pos st before (src_of (sg :: rest)) -> inv st ->
  exists st1, first_rule cfg rf cf lt F (ic_rules cfg) st false false = Ok (true, st1)
    /\ at_pos st1 (before ++ seg_src sg) (src_of rest) /\ inv st1 /\ flat st1 = flat st ++ seg_text sg.
Proof.
  intros Hwf HA HI. pose proof HA as (Hs & Hp & Hm & Hl). destruct sg as [r|c].
  - destruct Hwf as (Hne & Hr & Hadj & Hwf'). change (src_of (SPlain r :: rest)) with (r ++ src_of rest) in *.
    assert (Hnext : src_of rest = [] \/ exists c rest', src_of rest = c :: rest' /\ mem_z c text_terminators = true).
    { destruct (esc_src_starts rest Hwf') as [E | (c & rest' & E & [T | (r2 & l2 & ->)])]; [left; exact E | right; eauto | contradiction Hadj]. }
    eexists. split; [exact (first_rule_run st before r (src_of rest) HA Hne Hr Hnext)|].
    split; [|split; [exact HI | unfold flat; cbn; rewrite app_assoc; reflexivity]].
    unfold at_pos. cbn. rewrite <- app_assoc, len_app. repeat split; try assumption; reflexivity.
  - destruct Hwf as (Hc & Hwf'). change (src_of (SEsc c :: rest)) with (92 :: c :: src_of rest) in *.
    eexists. split; [exact (first_rule_esc st before c (src_of rest) HA Hc)|].
    destruct (flush_flat st) as (FF & FP & FI). specialize (FI HI). destruct FI as (A & B & C & D).
    split; [|split].
    + unfold at_pos, flushed. cbn. rewrite len_app. replace (len [92; c]) with 2 by reflexivity.
      destruct (i_pending st); cbn; rewrite <- app_assoc; cbn [app]; repeat split; try assumption; lia.
    + unfold inv. cbn. repeat split; [| |exact C|exact D].
      * apply Forall_app. split; [exact A|]. constructor; [|constructor]. split; [right; reflexivity | reflexivity].
      * apply Forall_app. split; [exact B | constructor; [reflexivity | constructor]].
    + rewrite <- FF. unfold flat. cbn. rewrite contents_app, FP, !app_nil_r. reflexivity.
Qed.

Lemma tok_while_esc : forall segs fuel st before ok,
  wf segs -> at_pos st before (src_of segs) -> inv st -> (length segs < fuel)%nat ->
  exists st', tok_while cfg rf cf lt fuel F st (i_posMax st) ok = Ok st'
              /\ flat st' = flat st ++ text_of segs /\ inv st' /\ i_level st' = 0.
Proof.
  induction segs as [|sg rest IH]; intros fuel st before ok Hwf HA HI Hf; (destruct fuel as [|f]; [cbn in Hf; lia|]); cbn [tok_while].
  - destruct HA as (Hs & Hp & Hm & Hl).
    assert (E : negb (i_pos st <? i_posMax st) = true) by (rewrite Hp, Hm; unfold src_of; cbn; rewrite app_nil_r; lia).
    rewrite E. exists st. unfold text_of. cbn. rewrite app_nil_r. split; [reflexivity | split; [reflexivity | split; [exact HI | exact Hl]]].
  - destruct (first_rule_seg st before sg rest Hwf HA HI) as (st1 & FR & HA1 & HI1 & F1).
    assert (Hwf' : wf rest) by (destruct sg; apply Hwf).
    assert (Hsg : 0 < len (seg_src sg)).
    { destruct sg as [[|x r]|c]; [destruct Hwf as (Hne & _); contradiction Hne; reflexivity | |]; cbn [seg_src]; rewrite !len_cons;
        [pose proof (len_nonneg r) | pose proof (len_nonneg (@nil Z))]; lia. }
    destruct HA as (Hs & Hp & Hm & Hl). pose proof HA1 as (_ & Hp1 & Hm1 & Hl1).
    change (src_of (sg :: rest)) with (seg_src sg ++ src_of rest) in Hm. rewrite app_assoc in Hm. rewrite <- Hm1 in Hm.
    pose proof (len_nonneg (src_of rest)).
    assert (E : negb (i_pos st <? i_posMax st) = false) by (rewrite Hp, Hm, Hm1, !len_app; lia).
    assert (Hnest' : (i_level st <? ic_maxNesting cfg) = true) by lia.
    rewrite E, Hnest', FR. cbn [bind]. cbv iota. rewrite Hm.
    assert (T : text_of (sg :: rest) = seg_text sg ++ text_of rest) by reflexivity.
    destruct (i_posMax st1 <=? i_pos st1) eqn:EE.
    + (* the segment reaches the end *)
      assert (Es : src_of rest = []) by (destruct (src_of rest) as [|x xs]; [reflexivity | rewrite Hp1, Hm1, len_app, len_cons in EE; pose proof (len_nonneg xs); lia]).
      apply (src_empty rest Hwf') in Es. subst rest. exists st1. rewrite T. cbn [text_of map concat]. rewrite app_nil_r.
      split; [reflexivity | split; [exact F1 | split; [exact HI1 | exact Hl1]]].
    + destruct (IH f st1 _ true Hwf' HA1 HI1 ltac:(cbn in Hf; lia)) as (st' & TW & Fl & I' & L').
      exists st'. split; [exact TW|]. split; [|split; assumption]. rewrite Fl, F1, T, app_assoc. reflexivity.
Qed.

Lemma iapply2_esc name st : inv st ->
  exists st', iapply2 name st = Ok st' /\ inv st' /\ contents (i_tokens st') = contents (i_tokens st).
Proof.
  intros (A & B & C & D). unfold iapply2.
  destruct (str_eqb name n_balance_pairs).
  { unfold r2_balance_pairs, on_all_delims. rewrite D, C. cbn [nth process_delimiters bind upd_nth_l].
    rewrite each_meta_none by exact B. eexists. split; [reflexivity|]. split; [|reflexivity].
    unfold inv. cbn. repeat split; assumption. }
  destruct (str_eqb name n_strikethrough).
  { unfold r2_strikethrough, on_all_delims. rewrite D, C. cbn [nth]. unfold strike_post. cbn [length st_pass1].
    change (negb (0 <? len (@nil delim))) with true. cbv iota. cbn [bind rev st_pass2].
    rewrite each_meta_none by exact B. eexists. split; [reflexivity|]. split; [|reflexivity].
    unfold inv. cbn. repeat split; assumption. }
  destruct (str_eqb name n_emphasis).
  { unfold r2_emphasis, on_all_delims. rewrite D, C. cbn [nth length em_pass].
    change (len (@nil delim) - 1 <? 0) with true. cbv iota. cbn [bind].
    rewrite each_meta_none by exact B. eexists. split; [reflexivity|]. split; [|reflexivity].
    unfold inv. cbn. repeat split; assumption. }
  destruct (str_eqb name n_fragments_join).
  { unfold r2_fragments_join. eexists. split; [reflexivity|]. split; [|cbn; apply fj_contents].
    unfold inv. cbn. repeat split; try assumption. apply fj_Forall; [| |exact A]; intros t x X; exact X. }
  exists st. split; [reflexivity|]. split; [repeat split; assumption | reflexivity].
Qed.

Lemma run_rules2_esc : forall names st, inv st ->
  exists st', run_rules2 names st = Ok st' /\ inv st' /\ contents (i_tokens st') = contents (i_tokens st).
Proof.
  induction names as [|n rest IH]; intros st H; cbn [run_rules2]; [exists st; repeat split; try reflexivity; apply H|].
  destruct (iapply2_esc n st H) as (s1 & E1 & I1 & C1). rewrite E1. cbn [bind].
  destruct (IH s1 I1) as (s2 & E2 & I2 & C2). exists s2. split; [exact E2|]. split; [exact I2 | congruence].
Qed.

Theorem inline_parse_esc_with segs env :
  wf segs ->
  exists toks, inline_parse_with cfg rf cf lt F (src_of segs) env [] = Ok toks
               /\ contents toks = text_of segs /\ Forall textlike toks.
Proof.
  intros Hwf. unfold inline_parse_with, inline_tokenize.
  set (st0 := istate_init (src_of segs) env []).
  assert (HA : at_pos st0 [] (src_of segs)) by (unfold at_pos, st0, istate_init; cbn; repeat split; reflexivity).
  assert (HI : inv st0) by (unfold inv, st0, istate_init; cbn; repeat split; constructor).
  destruct (tok_while_esc segs (S (S (length (i_src st0)))) st0 [] false Hwf HA HI) as (st1 & T & Fl & I1 & L1).
  { unfold st0, istate_init. cbn [i_src]. pose proof (wf_len segs Hwf). lia. }
  rewrite T. cbn [bind].
  destruct (flush_flat st1) as (FF & FP & FI). specialize (FI I1).
  fold (flushed st1). set (st2 := flushed st1) in *.
  destruct (run_rules2_esc (ic_rules2 cfg) st2 FI) as (st3 & R & I3 & C3). rewrite R. cbn [bind].
  exists (i_tokens st3). split; [reflexivity|]. split; [|apply I3].
  rewrite C3.
  assert (E2 : contents (i_tokens st2) = flat st2) by (unfold flat; rewrite FP, app_nil_r; reflexivity).
  rewrite E2, FF, Fl. unfold flat, st0, istate_init. cbn. reflexivity.
Qed.

End Esc.

From MD Require Import Model.Pipeline Lemmas.NormalizeLemmas Lemmas.ParaLine.

Lemma join_tok_textlike t : textlike t -> ttype (join_tok t) = s_text /\ tcontent (join_tok t) = tcontent t.
Proof.
  intros [[E|E] _]; destruct t; cbn in *; rewrite E; split; reflexivity.
Qed.

Lemma join_fold_textlike : forall ts acc,
  Forall textlike ts -> (acc = [] \/ exists p, acc = [p] /\ ttype p = s_text) ->
  let r := fold_left (fun acc y => join_push acc (join_tok y)) ts acc in
  (r = [] /\ ts = [] /\ acc = []) \/ (exists p, r = [p] /\ ttype p = s_text /\ tcontent p = contents acc ++ contents ts).
Proof.
  induction ts as [|t ts IH]; intros acc H Ha; cbn [fold_left].
  - destruct Ha as [-> | (p & -> & Hp)]; [left; repeat split | right; exists p; repeat split; [exact Hp | unfold contents; cbn; rewrite !app_nil_r; reflexivity]].
  - inversion H as [|? ? Ht Hr]; subst. destruct (join_tok_textlike t Ht) as [JT JC].
    assert (Ha' : exists p, join_push acc (join_tok t) = [p] /\ ttype p = s_text /\ tcontent p = contents acc ++ tcontent t).
    { destruct Ha as [-> | (p & -> & Hp)]; unfold join_push.
      - exists (join_tok t). repeat split; [exact JT | rewrite JC; reflexivity].
      - rewrite JT, Hp. change (str_eqb s_text s_text) with true. cbn [andb].
        eexists. split; [reflexivity|]. split; [exact Hp|]. cbn. rewrite JC. unfold contents. cbn. rewrite app_nil_r. reflexivity. }
    destruct Ha' as (p & E & Hp & Cp). rewrite E.
    destruct (IH [p] Hr (or_intror (ex_intro _ p (conj eq_refl Hp)))) as [(_ & _ & X) | (q & Eq & Hq & Cq)]; [discriminate X|].
    right. exists q. repeat split; [exact Eq | exact Hq|].
    rewrite Cq. rewrite (contents_cons t ts). replace (contents [p]) with (tcontent p) by (unfold contents; cbn; rewrite app_nil_r; reflexivity).
    rewrite Cp, app_assoc. reflexivity.
Qed.

Lemma join_children_textlike ts : Forall textlike ts ->
  (ts = [] /\ join_children ts = []) \/ (exists p, join_children ts = [p] /\ ttype p = s_text /\ tcontent p = contents ts).
Proof.
  intros H. unfold join_children.
  destruct (join_fold_textlike ts [] H (or_introl eq_refl)) as [(R & T & _) | (p & R & Hp & Cp)]; cbv zeta in *.
  - left. split; [exact T | rewrite R; reflexivity].
  - right. exists p. rewrite R. repeat split; [exact Hp | exact Cp].
Qed.

Lemma esc_text_nonempty segs : wf segs -> line_ok (src_of segs) -> text_of segs <> [].
Proof.
  intros Hwf [(c0 & body & E & _) _] CT. destruct segs as [|[r|c] l]; [discriminate E| |].
  - destruct Hwf as (Hne & _). unfold text_of in CT. cbn in CT. destruct r; [contradiction Hne; reflexivity | discriminate CT].
  - unfold text_of in CT. cbn in CT. discriminate CT.
Qed.

Lemma render_text_token o prev t next : ttype t = s_text -> render_one o prev t next = Ok ([CEsc (tcontent t)], t).
Proof. intros E. unfold render_one. rewrite E. reflexivity. Qed.

Section EndToEnd.
Context (cfg : pcfg) (rf cf lt : str -> str).
Context (pre post : list str).
Context (HR : ic_rules (p_inline cfg) = pre ++ n_escape :: post).
Context (Hpre : Forall (fun n => n = n_text \/ n = n_linkify \/ n = n_newline) pre).
Context (Htext : In n_text pre).
Context (Hlink : ic_linkify (p_inline cfg) = false).
Context (Hnest : 0 < ic_maxNesting (p_inline cfg)).
Context (Hcore : p_core cfg = [n_normalize; n_block; n_inline; n_text_join]).

Lemma inline_parse_esc_one segs env : wf segs -> line_ok (src_of segs) ->
  exists toks p, inline_parse (p_inline cfg) rf cf lt (src_of segs) env [] = Ok toks
    /\ join_children toks = [p] /\ ttype p = s_text /\ tcontent p = text_of segs.
Proof.
  intros Hwf Hs. unfold inline_parse.
  destruct (inline_parse_esc_with (p_inline cfg) rf cf lt (ifs (p_inline cfg) rf cf lt (inline_depth (p_inline cfg))) pre post HR Hpre Htext Hlink Hnest segs env Hwf)
    as (toks & IP & CT & TL).
  exists toks. destruct (join_children_textlike toks TL) as [(-> & _) | (p & JC & Hp & Cp)].
  - exfalso. unfold contents in CT. cbn in CT. exact (esc_text_nonempty segs Hwf Hs (eq_sym CT)).
  - exists p. repeat split; [exact IP | exact JC | exact Hp | rewrite Cp; exact CT].
Qed.

(* renderInline(esc(t)) = escapeHtml(t) *)
Theorem render_inline_esc segs env :
  wf segs -> mem_z CR (src_of segs) = false -> mem_z NUL (src_of segs) = false ->
  render_inline_md cfg rf cf lt (src_of segs) env = Ok (escape_html (text_of segs), env).
Proof.
  intros Hwf H13 H0. unfold render_inline_md.
  rewrite (parse_inline_one_line cfg rf cf lt _ H13 H0 Hcore). unfold inline_parse.
  destruct (inline_parse_esc_with (p_inline cfg) rf cf lt (ifs (p_inline cfg) rf cf lt (inline_depth (p_inline cfg))) pre post HR Hpre Htext Hlink Hnest segs env Hwf)
    as (toks & IP & CT & TL).
  rewrite IP. cbn [bind].
  unfold render. cbn [render_list].
  match goal with |- context [str_eqb (ttype ?t) s_inline] => change (str_eqb (ttype t) s_inline) with true end. cbv iota.
  match goal with |- context [tchildren (set_children ?t (Some ?c))] => change (tchildren (set_children t (Some c))) with (Some c) end.
  destruct (join_children_textlike toks TL) as [(-> & ->) | (p & -> & Hp & Cp)].
  - cbn [bind html_of flat_map app]. unfold contents in CT. cbn in CT. rewrite <- CT. reflexivity.
  - cbn [render_inline_list hd_error]. rewrite (render_text_token _ _ p None Hp). cbn [bind render_inline_list app html_of flat_map chunk_html].
    rewrite app_nil_r, Cp, CT. reflexivity.
Qed.

End EndToEnd.

From MD Require Import Lemmas.PipelineSafe.

(* t = "ab*c d<&_"  escaped as  "ab\*c d\<\&\_" *)
Definition ex_segs : list seg := [SPlain [97; 98]; SEsc 42; SPlain [99; 32; 100]; SEsc 60; SEsc 38; SEsc 95].

Example render_inline_esc_applies :
  wf ex_segs
  /\ render_inline_md ex_cfg (fun s => s) (fun s => s) (fun s => s) (src_of ex_segs) env0
     = Ok ([97; 98; 42; 99; 32; 100; 38; 108; 116; 59; 38; 97; 109; 112; 59; 95], env0).
Proof.
  assert (W : wf ex_segs).
  { cbn. repeat split; try discriminate; try (repeat constructor; reflexivity). }
  split; [exact W|].
  rewrite (render_inline_esc ex_cfg (fun s => s) (fun s => s) (fun s => s) [n_text; n_newline] [n_backticks; n_emphasis; n_link; n_image; n_autolink; n_html_inline; n_entity]);
    try reflexivity; try exact W.
  all: try (left; reflexivity).
  all: try (constructor; [left; reflexivity|]; constructor; [right; right; reflexivity | constructor]).
  all: try (cbn; lia).
Qed.
