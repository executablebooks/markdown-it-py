(* C17, tab half behind a block quote marker: what the quote rule writes into sCount / bsCount for a
   quoted line depends on the blanks after '>' only through the column they reach, counted from the
   real column of the marker with tab stops every four columns.  So spelling those blanks with
   tabs or with the spaces up to the next tab stop is the same line for every later rule. *)
From MD Require Import Base.Py Model.Utils Model.Block Lemmas.StrLemmas Lemmas.BlockLemmas
     Lemmas.QuoteLemmas Lemmas.TabCols.
From Coq Require Import ZifyBool.

Definition chars_at (src : str) (pos : Z) (ws : list Z) : Prop :=
  forall i c, nth_error ws i = Some c -> nth_error src (Z.to_nat pos + i) = Some c.

Lemma chars_at_cons src pos c ws : 0 <= pos -> chars_at src pos (c :: ws) ->
  nth_error src (Z.to_nat pos) = Some c /\ chars_at src (pos + 1) ws.
Proof.
  intros Hp H. split.
  - specialize (H O c eq_refl). rewrite Nat.add_0_r in H. exact H.
  - intros i x Hx. specialize (H (S i) x Hx). replace (Z.to_nat (pos + 1) + i)%nat with (Z.to_nat pos + S i)%nat by lia. exact H.
Qed.

Lemma chars_at_app (P ws r : str) : chars_at (P ++ ws ++ r) (len P) ws.
Proof.
  intros i c H. unfold len. rewrite Nat2Z.id, nth_error_app2, Nat.add_comm, Nat.add_sub by lia.
  rewrite nth_error_app1 by (apply nth_error_Some; congruence). exact H.
Qed.
Lemma stop_at_app (P ws : str) c r mx : is_space c = false -> stop_at (P ++ ws ++ c :: r) (len P + len ws) mx.
Proof.
  intros H. right. exists c. split; [|exact H]. rewrite <- len_app, app_assoc. unfold len. rewrite Nat2Z.id. apply nth_error_app_mid.
Qed.

Lemma blank_is_space c : blank c -> is_space c = true.
Proof. intros [->| ->]; reflexivity. Qed.

(* adj (adjustTab in blockquote.py): the tab after the marker is being split, and the tab stops are counted
   from one column further *)
Lemma bq_blanks_exact : forall ws fuel src pos mx offset bs adj,
  Forall blank ws -> chars_at src pos ws -> stop_at src (pos + len ws) mx ->
  (length ws < fuel)%nat -> 0 <= pos -> pos + len ws <= mx ->
  bq_blanks fuel src pos mx offset bs adj
  = Ok (pos + len ws, cols (offset + bs + (if adj then 1 else 0)) ws - (bs + (if adj then 1 else 0))).
Proof.
  induction ws as [|c ws IH]; intros fuel src pos mx offset bs adj F C S HF Hp Hm.
  - destruct fuel as [|f]; [cbn in HF; lia|]. cbn [bq_blanks cols]. unfold len in *. cbn [length] in *. rewrite Z.add_0_r in *.
    destruct (pos <? mx) eqn:E; cbn [negb]; [|f_equal; f_equal; lia].
    destruct S as [Hge | (x & Hx & Hns)]; [lia|].
    rewrite (py_idx_nth _ _ _ Hp Hx). cbn [bind]. rewrite Hns. f_equal. f_equal; lia.
  - destruct fuel as [|f]; [cbn in HF; lia|]. cbn [bq_blanks]. rewrite len_cons in *.
    assert (E : (pos <? mx) = true) by (pose proof (len_nonneg ws); lia). rewrite E. cbn [negb].
    inversion F as [|? ? Hc Hr]; subst. destruct (chars_at_cons _ _ _ _ Hp C) as [H0 C'].
    rewrite (py_idx_nth _ _ _ Hp H0). cbn [bind]. rewrite (blank_is_space c Hc). cbv iota.
    rewrite (IH f src (pos + 1) mx _ bs adj Hr C'); [| |cbn in HF; lia|lia|lia].
    + cbn [cols]. set (a := if adj then 1 else 0). set (X := offset + bs + a).
      replace (pos + 1 + len ws) with (pos + (1 + len ws)) by lia. f_equal. f_equal. f_equal.
      destruct (c =? 9); [replace (offset + (4 - X mod 4) + bs + a) with (X + (4 - X mod 4)) by (unfold X; lia) | replace (offset + 1 + bs + a) with (X + 1) by (unfold X; lia)]; reflexivity.
    + replace (pos + 1 + len ws) with (pos + (1 + len ws)) by lia. exact S.
Qed.

(* a tab measured from the column after the marker or from one column further reaches the same stop,
   unless it is one column wide *)
Lemma cols_tab_shift R r : (R + 1) mod 4 <> 3 -> cols (R + 2) (9 :: r) = cols (R + 1) (9 :: r).
Proof.
  intros H. cbn [cols]. change (9 =? 9) with true. cbv iota. f_equal.
  pose proof (Z.mod_pos_bound (R + 1) 4 ltac:(lia)). pose proof (Z.mod_pos_bound (R + 2) 4 ltac:(lia)).
  pose proof (Z.div_mod (R + 1) 4 ltac:(lia)). pose proof (Z.div_mod (R + 2) 4 ltac:(lia)).
  assert ((R + 1) / 4 = (R + 2) / 4) by (apply Z.div_unique with (r := (R + 1) mod 4 + 1); lia). lia.
Qed.

(* the line is  '>' ws (non-blank | end)  with the marker in real column bs + sc *)
Theorem bq_strip_columns src pos0 mx sc bs ws :
  0 <= pos0 -> ws <> [] -> Forall blank ws -> chars_at src (pos0 + 1) ws ->
  stop_at src (pos0 + 1 + len ws) mx -> pos0 + 1 + len ws <= mx -> mx <= len src ->
  exists q, bq_strip src pos0 mx sc bs = Ok q
    /\ q_sCount q = cols (bs + sc + 1) ws - (bs + sc + 2)
    /\ q_bsCount q = bs + sc + 2
    /\ q_bMark q + q_tShift q = pos0 + 1 + len ws
    /\ q_empty q = (mx <=? pos0 + 1 + len ws).
Proof.
  intros Hp NE F C ST Hm Hl. destruct ws as [|c r]; [contradiction NE; reflexivity|].
  inversion F as [|? ? Hc Hr]; subst. assert (Hp1 : 0 <= pos0 + 1) by lia. destruct (chars_at_cons src (pos0 + 1) c r Hp1 C) as [H0 C'].
  rewrite len_cons in *. pose proof (len_nonneg r) as LR.
  unfold bq_strip. cbv zeta. rewrite (char_at_nonneg src (pos0 + 1) Hp1), H0.
  assert (FU : (length r < S (length src))%nat) by (unfold len in *; lia).
  destruct Hc as [->| ->].
  - (* a space after the marker *)
    cbv iota beta.
    rewrite (bq_blanks_exact r (S (length src)) src (pos0 + 1 + 1) mx (sc + 1 + 1) bs false Hr); try lia.
    + cbn [bind]. eexists. split; [reflexivity|]. cbn [q_sCount q_bsCount q_bMark q_tShift q_empty cols].
      change (32 =? 9) with false. cbv iota.
      replace (sc + 1 + 1 + bs + 0) with (bs + sc + 1 + 1) by lia.
      split; [lia|]. split; [lia|]. split; [lia|]. f_equal. lia.
    + exact C'.
    + replace (pos0 + 1 + 1 + len r) with (pos0 + 1 + (1 + len r)) by lia. exact ST.
  - (* a tab after the marker *)
    cbv iota beta.
    destruct ((bs + (sc + 1)) mod 4 =? 3) eqn:W.
    + (* one column wide: like a space *)
      rewrite (bq_blanks_exact r (S (length src)) src (pos0 + 1 + 1) mx (sc + 1 + 1) bs false Hr); try lia.
      * cbn [bind]. eexists. split; [reflexivity|]. cbn [q_sCount q_bsCount q_bMark q_tShift q_empty cols].
        change (9 =? 9) with true. cbv iota.
        assert (X : bs + sc + 1 + (4 - (bs + sc + 1) mod 4) = sc + 1 + 1 + bs + 0).
        { replace (bs + sc + 1) with (bs + (sc + 1)) by lia. lia. }
        rewrite X. split; [lia|]. split; [lia|]. split; [lia|]. f_equal. lia.
      * exact C'.
      * replace (pos0 + 1 + 1 + len r) with (pos0 + 1 + (1 + len r)) by lia. exact ST.
    + (* wider: the tab is split, one column is the optional space *)
      rewrite (bq_blanks_exact (9 :: r) (S (length src)) src (pos0 + 1) mx (sc + 1) bs true F); try lia.
      * cbn [bind]. eexists. split; [reflexivity|]. cbn [q_sCount q_bsCount q_bMark q_tShift q_empty].
        replace (sc + 1 + bs + 1) with (bs + sc + 2) by lia.
        rewrite (cols_tab_shift (bs + sc) r) by (replace (bs + sc + 1) with (bs + (sc + 1)) by lia; lia).
        rewrite len_cons. split; [lia|]. split; [lia|]. split; [lia|]. f_equal; lia.
      * exact C.
      * rewrite len_cons. exact ST.
      * cbn [length]. unfold len in *. lia.
      * rewrite len_cons. lia.
Qed.

Theorem bq_strip_respelling src1 src2 p1 p2 mx1 mx2 sc bs ws1 ws2 q1 q2 :
  0 <= p1 -> 0 <= p2 -> ws1 <> [] -> ws2 <> [] -> Forall blank ws1 -> Forall blank ws2 ->
  chars_at src1 (p1 + 1) ws1 -> chars_at src2 (p2 + 1) ws2 ->
  stop_at src1 (p1 + 1 + len ws1) mx1 -> stop_at src2 (p2 + 1 + len ws2) mx2 ->
  p1 + 1 + len ws1 <= mx1 -> p2 + 1 + len ws2 <= mx2 -> mx1 <= len src1 -> mx2 <= len src2 ->
  cols (bs + sc + 1) ws1 = cols (bs + sc + 1) ws2 ->
  (mx1 <=? p1 + 1 + len ws1) = (mx2 <=? p2 + 1 + len ws2) ->
  bq_strip src1 p1 mx1 sc bs = Ok q1 -> bq_strip src2 p2 mx2 sc bs = Ok q2 ->
  q_sCount q1 = q_sCount q2 /\ q_bsCount q1 = q_bsCount q2 /\ q_empty q1 = q_empty q2.
Proof.
  intros A1 A2 N1 N2 F1 F2 C1 C2 S1 S2 M1 M2 L1 L2 EC EE E1 E2.
  destruct (bq_strip_columns src1 p1 mx1 sc bs ws1 A1 N1 F1 C1 S1 M1 L1) as (x1 & X1 & a1 & b1 & _ & e1).
  destruct (bq_strip_columns src2 p2 mx2 sc bs ws2 A2 N2 F2 C2 S2 M2 L2) as (x2 & X2 & a2 & b2 & _ & e2).
  rewrite X1 in E1. rewrite X2 in E2. injection E1 as <-. injection E2 as <-.
  split; [rewrite a1, a2, EC; reflexivity|]. split; [rewrite b1, b2; reflexivity | rewrite e1, e2; exact EE].
Qed.

Lemma list_blanks_exact : forall ws fuel src pos mx offset bs,
  Forall blank ws -> chars_at src pos ws -> stop_at src (pos + len ws) mx ->
  (length ws < fuel)%nat -> 0 <= pos -> pos + len ws <= mx ->
  list_blanks fuel src pos mx offset bs = Ok (pos + len ws, cols (offset + bs) ws - bs).
Proof.
  intros ws fuel src pos mx offset bs F C ST HF Hp Hm.
  rewrite list_blanks_bq, (bq_blanks_exact ws fuel src pos mx offset bs false F C ST HF Hp Hm), !Z.add_0_r. reflexivity.
Qed.

Theorem list_blanks_respelling src1 src2 p1 p2 mx1 mx2 offset bs ws1 ws2 :
  Forall blank ws1 -> Forall blank ws2 -> chars_at src1 p1 ws1 -> chars_at src2 p2 ws2 ->
  stop_at src1 (p1 + len ws1) mx1 -> stop_at src2 (p2 + len ws2) mx2 ->
  0 <= p1 -> 0 <= p2 -> p1 + len ws1 <= mx1 -> p2 + len ws2 <= mx2 -> mx1 <= len src1 -> mx2 <= len src2 ->
  cols (offset + bs) ws1 = cols (offset + bs) ws2 ->
  exists o, list_blanks (S (length src1)) src1 p1 mx1 offset bs = Ok (p1 + len ws1, o)
         /\ list_blanks (S (length src2)) src2 p2 mx2 offset bs = Ok (p2 + len ws2, o).
Proof.
  intros F1 F2 C1 C2 S1 S2 P1 P2 M1 M2 L1 L2 EC.
  exists (cols (offset + bs) ws1 - bs). split.
  - apply list_blanks_exact; try assumption. pose proof (len_nonneg ws1). unfold len in *. lia.
  - rewrite EC. apply list_blanks_exact; try assumption. pose proof (len_nonneg ws2). unfold len in *. lia.
Qed.
