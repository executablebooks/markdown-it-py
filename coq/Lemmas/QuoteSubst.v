(* C19: smartquotes only substitutes straight quote characters, in place.  Every change
   process_inlines makes to the content of a token is a replacement of ONE character that is
   a straight single or double quote at that moment by one of the configured quote strings or by the apostrophe; nothing else
   of any content changes.  The invariant: the positions remembered on the stack of unmatched
   openers stay valid - every replacement happens to the right of all of them. *)
From MD Require Import Base.Py Base.Str Base.Regex Model.Token Model.Render Model.Core Lemmas.StrLemmas
 Lemmas.CoreLemmas.
From Coq Require Import ZifyBool Sorted.

Definition is_q (c : Z) : bool := (c =? 39) || (c =? 34).

Lemma replace_at_eq (s : str) q x : 0 <= q < len s ->
  replace_at s q x = firstn (Z.to_nat q) s ++ x ++ skipn (S (Z.to_nat q)) s.
Proof.
  intros H. unfold replace_at, slice_from. rewrite !slice_nonneg by lia.
  pose proof (len_nonneg s) as LN.
  replace (Z.min q (len s)) with q by lia. replace (Z.min 0 (len s)) with 0 by lia.
  replace (Z.min (len s) (len s)) with (len s) by lia. replace (Z.min (q + 1) (len s)) with (q + 1) by lia.
  change (Z.to_nat 0) with 0%nat. cbn [skipn]. rewrite Z.sub_0_r.
  replace (Z.to_nat (q + 1)) with (S (Z.to_nat q)) by lia.
  assert (A : (if q <=? 0 then [] else firstn (Z.to_nat q) s) = firstn (Z.to_nat q) s).
  { destruct (q <=? 0) eqn:Q0; [|reflexivity]. assert (q = 0) by lia. subst q. reflexivity. }
  assert (B : (if len s <=? q + 1 then [] else firstn (Z.to_nat (len s - (q + 1))) (skipn (S (Z.to_nat q)) s)) = skipn (S (Z.to_nat q)) s).
  { destruct (len s <=? q + 1) eqn:L1.
    - rewrite skipn_all2; [reflexivity|]. unfold len in *. lia.
    - rewrite firstn_all2; [reflexivity|]. rewrite skipn_length. unfold len in *. lia. }
  rewrite A, B. reflexivity.
Qed.

Lemma replace_at_before (s : str) q x p : 0 <= p -> p < q -> q < len s ->
  char_at (replace_at s q x) p = char_at s p.
Proof.
  intros H0 H1 H2. rewrite replace_at_eq by lia. rewrite !char_at_nonneg by lia.
  rewrite nth_error_app1 by (rewrite firstn_length; unfold len in *; lia).
  apply nth_firstn. lia.
Qed.

Lemma replace_at_1_len (s : str) q c : 0 <= q < len s -> len (replace_at s q [c]) = len s.
Proof.
  intros H. rewrite replace_at_eq by lia. rewrite !len_app. unfold len in *. rewrite firstn_length, skipn_length. cbn [length]. lia.
Qed.
Lemma replace_at_1_after (s : str) q c p : 0 <= q < len s -> q < p ->
  char_at (replace_at s q [c]) p = char_at s p.
Proof.
  intros H0 H1. rewrite replace_at_eq by lia. rewrite !char_at_nonneg by lia.
  rewrite nth_error_app2 by (rewrite firstn_length; unfold len in *; lia).
  rewrite firstn_length. replace (Init.Nat.min (Z.to_nat q) (length s)) with (Z.to_nat q) by (unfold len in *; lia).
  destruct (Z.to_nat p - Z.to_nat q)%nat as [|k] eqn:K; [lia|]. cbn [app nth_error].
  rewrite nth_skipn. f_equal. lia.
Qed.

Lemma find_quote_aux_spec : forall s i q, find_quote_aux s i = Some q ->
  i <= q /\ exists c, nth_error s (Z.to_nat (q - i)) = Some c /\ is_q c = true.
Proof.
  induction s as [|c s IH]; intros i q H; cbn [find_quote_aux] in H; [discriminate|].
  destruct ((c =? 39) || (c =? 34)) eqn:E.
  - injection H as <-. split; [lia|]. exists c. rewrite Z.sub_diag. split; [reflexivity | exact E].
  - apply IH in H. destruct H as [L (c' & N & Q)]. split; [lia|]. exists c'. split; [|exact Q].
    replace (Z.to_nat (q - i)) with (S (Z.to_nat (q - (i + 1)))) by lia. exact N.
Qed.
Lemma find_quote_spec text pos q : find_quote text pos = Some q -> 0 <= pos ->
  pos <= q /\ exists c, char_at text q = Some c /\ is_q c = true.
Proof.
  unfold find_quote. intros H Hp. apply find_quote_aux_spec in H. destruct H as [L (c & N & Q)].
  split; [exact L|]. exists c. split; [|exact Q]. rewrite char_at_nonneg by lia. rewrite nth_skipn in N.
  replace (Z.to_nat q) with (Z.to_nat pos + Z.to_nat (q - pos))%nat by lia. exact N.
Qed.

Lemma content_set tokens i c j :
  content_at (set_content_at tokens i c) j = if Nat.eqb i j && Nat.ltb j (length tokens) then c else content_at tokens j.
Proof.
  unfold content_at, set_content_at. rewrite nth_error_update_nth.
  destruct (Nat.eqb i j); [|reflexivity]. cbn [andb].
  destruct (Nat.ltb_spec j (length tokens)) as [L|L].
  - apply nth_error_Some in L. destruct (nth_error tokens j); [reflexivity | congruence].
  - apply nth_error_None in L. rewrite L. reflexivity.
Qed.
Lemma set_content_at_length tokens i c : length (set_content_at tokens i c) = length tokens.
Proof. apply update_nth_length. Qed.

Definition qat (tokens : list token) (j : nat) (p : Z) : Prop :=
  0 <= p /\ exists c, char_at (content_at tokens j) p = Some c /\ is_q c = true.
Definition below (j : nat) (p : Z) (j' : nat) (p' : Z) : Prop := (j < j')%nat \/ (j = j' /\ p < p').
Lemma below_le j p j' p' p'' : below j p j' p' -> p' <= p'' -> below j p j' p''.
Proof. unfold below. lia. Qed.

(* every opener on the stack is a quote character of its token, the stack is ordered by position with the top
   rightmost, and all of it lies to the left of (bi, bp), where the loop stands *)
Definition SI (tokens : list token) (stack : list sq_item) (bi : nat) (bp : Z) : Prop :=
  Forall (fun it => qat tokens (sq_token it) (sq_pos it)) stack
  /\ StronglySorted (fun top lower => below (sq_token lower) (sq_pos lower) (sq_token top) (sq_pos top)) stack
  /\ Forall (fun it => below (sq_token it) (sq_pos it) bi bp) stack.

Lemma qat_set tokens j p j' q x : qat tokens j p -> below j p j' q -> q < len (content_at tokens j') ->
  qat (set_content_at tokens j' (replace_at (content_at tokens j') q x)) j p.
Proof.
  intros (P0 & c & Hc & Hq) B L. split; [exact P0|]. exists c. split; [|exact Hq]. rewrite content_set.
  destruct (Nat.eqb j' j && Nat.ltb j (length tokens)) eqn:E; [|exact Hc].
  apply Bool.andb_true_iff in E. destruct E as [E _]. apply Nat.eqb_eq in E. subst j'.
  destruct B as [B|[_ B]]; [lia|]. rewrite replace_at_before by lia. exact Hc.
Qed.

Lemma SI_set tokens stack j q x : SI tokens stack j q -> qat tokens j q ->
  SI (set_content_at tokens j (replace_at (content_at tokens j) q x)) stack j q.
Proof.
  intros (A & B & C) (Q0 & c & Hc & _). split; [|split; [exact B | exact C]].
  rewrite Forall_forall in *. intros it I. apply qat_set; [exact (A it I) | exact (C it I) | exact (char_at_lt _ _ _ Hc Q0)].
Qed.

Lemma SI_bound tokens stack bi bp bi' bp' : SI tokens stack bi bp ->
  (forall j p, below j p bi bp -> below j p bi' bp') -> SI tokens stack bi' bp'.
Proof.
  intros (A & B & C) H. split; [exact A|]. split; [exact B|]. eapply Forall_impl; [|exact C]. intros it. apply H.
Qed.
Lemma SI_le tokens stack i p p' : SI tokens stack i p -> p <= p' -> SI tokens stack i p'.
Proof. intros H L. eapply SI_bound; [exact H|]. intros j q B. exact (below_le _ _ _ _ _ B L). Qed.
Lemma SI_next tokens stack i p : SI tokens stack i p -> SI tokens stack (S i) 0.
Proof. intros H. eapply SI_bound; [exact H|]. unfold below. lia. Qed.

Lemma SI_push tokens stack i q single lvl : SI tokens stack i q -> qat tokens i q ->
  SI tokens (mkSq i q single lvl :: stack) i (q + 1).
Proof.
  intros H Q. pose proof (SI_le _ _ _ _ (q + 1) H ltac:(lia)) as (A & B & C). destruct H as (_ & _ & C0).
  split; [constructor; [exact Q | exact A]|]. split; [constructor; [exact B | exact C0]|].
  constructor; [right; cbn; lia | exact C].
Qed.

Lemma SI_suffix tokens pre stack bi bp : SI tokens (pre ++ stack) bi bp -> SI tokens stack bi bp.
Proof.
  intros (A & B & C). apply Forall_app in A. apply Forall_app in C. split; [exact (proj2 A)|]. split; [|exact (proj2 C)].
  clear A C. induction pre as [|x pre IH]; [exact B|]. cbn in B. inversion B; subst. apply IH. assumption.
Qed.

Lemma SI_truncate tokens stack lvl bi bp : SI tokens stack bi bp -> SI tokens (truncate_stack stack lvl) bi bp.
Proof. intros H. destruct (truncate_suffix stack lvl) as [pre E]. rewrite E in H. exact (SI_suffix _ _ _ _ _ H). Qed.

Lemma SI_opener tokens stack bi bp lvl single it rest :
  find_opener stack lvl single = Some (it, rest) -> SI tokens stack bi bp ->
  qat tokens (sq_token it) (sq_pos it) /\ below (sq_token it) (sq_pos it) bi bp
  /\ SI tokens rest (sq_token it) (sq_pos it).
Proof.
  intros F H. destruct (find_opener_split _ _ _ _ _ F) as [pre ->]. apply SI_suffix in H. destruct H as (A & B & C).
  inversion A as [|? ? A1 A2]; subst. inversion B as [|? ? B1 B2]; subst. inversion C as [|? ? C1 C2]; subst.
  split; [exact A1|]. split; [exact C1|]. split; [exact A2|]. split; [exact B1 | exact B2].
Qed.

Lemma content_len_in tokens i p c : char_at (content_at tokens i) p = Some c -> 0 <= p -> (i < length tokens)%nat.
Proof.
  intros H Hp. unfold content_at in H. destruct (nth_error tokens i) eqn:N; [apply nth_error_Some; congruence|].
  rewrite char_at_nonneg in H by lia. destruct (Z.to_nat p); discriminate H.
Qed.

Section Quotes.
Context (quotes : list str).

Definition qrepl (x : str) : Prop := x = s_apostrophe \/ exists k, x = nth k quotes [].

(* b is a with some straight quote characters replaced, one at a time and in place *)
Inductive qs : str -> str -> Prop :=
| qs_refl a : qs a a
| qs_step a b p c x : qs a b -> 0 <= p -> char_at b p = Some c -> is_q c = true -> qrepl x -> qs a (replace_at b p x).

Lemma qs_trans a b c : qs a b -> qs b c -> qs a c.
Proof. intros H1 H2. induction H2 as [|b' c' p ch x H IH Hp Hc Hq Hx]; [exact H1|]. eapply qs_step; eauto. Qed.

Definition QS (t t' : list token) : Prop := forall j, qs (content_at t j) (content_at t' j).
Lemma QS_refl t : QS t t. Proof. intros j. apply qs_refl. Qed.
Lemma QS_trans a b c : QS a b -> QS b c -> QS a c.
Proof. intros H1 H2 j. exact (qs_trans _ _ _ (H1 j) (H2 j)). Qed.

Lemma QS_set tokens i q x : qat tokens i q -> qrepl x ->
  QS tokens (set_content_at tokens i (replace_at (content_at tokens i) q x)).
Proof.
  intros (Hq & c & Hc & Hi) Hx j. rewrite content_set.
  destruct (Nat.eqb i j && Nat.ltb j (length tokens)) eqn:E; [|apply qs_refl].
  apply Bool.andb_true_iff in E. destruct E as [E _]. apply Nat.eqb_eq in E. subst j.
  eapply qs_step; [apply qs_refl | exact Hq | exact Hc | exact Hi | exact Hx].
Qed.

Lemma qrepl_nth k : qrepl (nth k quotes []).
Proof. right. exists k. reflexivity. Qed.
Lemma qrepl_apo : qrepl s_apostrophe.
Proof. left. reflexivity. Qed.

(* One round of the while loop.  What it keeps: the stack lies to the left of pos, and from pos on the text it
   searches is the content of token i.  (After a closing quote the text is read again from the token, and the new
   position allows for the lengths of both replacement strings; in between only one character is replaced by one.) *)
Lemma sq_step_qs i lvl tokens stack text pos q tokens1 stack1 text1 pos1 :
  SI tokens stack i pos -> 0 <= pos -> (forall p, pos <= p -> char_at text p = char_at (content_at tokens i) p) ->
  find_quote text pos = Some q -> sq_step quotes i lvl tokens stack text q tokens1 stack1 text1 pos1 ->
  QS tokens tokens1 /\ SI tokens1 stack1 i pos1 /\ 0 <= pos1
  /\ (forall p, pos1 <= p -> char_at text1 p = char_at (content_at tokens1 i) p).
Proof.
  intros HS P0 TX FQ ST.
  destruct (find_quote_spec _ _ _ FQ P0) as (Lq & c & Cq & Qc). rewrite (TX q Lq) in Cq.
  assert (QA : qat tokens i q) by (split; [lia | exists c; split; [exact Cq | exact Qc]]).
  apply SI_le with (p' := q) in HS; [|exact Lq].
  assert (TX' : forall p, q + 1 <= p -> char_at text p = char_at (content_at tokens i) p) by (intros p Hp; apply TX; lia).
  destruct ST as [| |single|single it rest ko kc FO].
  - split; [apply QS_refl|]. split; [apply SI_le with q; [exact HS | lia]|]. split; [lia | exact TX'].
  - split; [apply QS_set; [exact QA | apply qrepl_apo]|].
    split; [apply SI_le with q; [apply SI_set; [exact HS | exact QA] | lia]|]. split; [lia|].
    intros p Hp. rewrite content_set.
    pose proof (content_len_in _ _ _ _ Cq ltac:(lia)) as IL. apply Nat.ltb_lt in IL. rewrite Nat.eqb_refl, IL. cbn [andb].
    pose proof (char_at_lt _ _ _ Cq ltac:(lia)) as QL.
    unfold s_apostrophe. rewrite replace_at_1_after by lia. apply TX', Hp.
  - split; [apply QS_refl|]. split; [apply SI_push; [exact HS | exact QA]|]. split; [lia | exact TX'].
  - pose proof (QS_set tokens i q closeQ QA (qrepl_nth kc)) as Q1. fold tokens1 in Q1.
    apply SI_set with (x := closeQ) in HS; [|exact QA]. fold tokens1 in HS.
    destruct (SI_opener _ _ _ _ _ _ _ _ FO HS) as (QI & BI & SR).
    pose proof (QS_set tokens1 _ _ openQ QI (qrepl_nth ko)) as Q2. fold tokens2 in Q2.
    apply SI_set with (x := openQ) in SR; [|exact QI]. fold tokens2 in SR.
    split; [exact (QS_trans _ _ _ Q1 Q2)|].
    (* what stays on the stack lies left of the opener, the opener left of q: room for two empty replacements *)
    destruct QI as (PI0 & _). pose proof (len_nonneg closeQ) as LC. pose proof (len_nonneg openQ) as LO.
    unfold below in BI.
    split; [|split; [destruct (Nat.eqb_spec (sq_token it) i); lia | reflexivity]].
    eapply SI_bound; [exact SR|]. unfold below. intros j p B. destruct (Nat.eqb_spec (sq_token it) i); lia.
Qed.

Lemma sq_while_qs i lvl : forall fuel tokens stack text pos tokens' stack',
  sq_while fuel quotes i lvl tokens stack text pos = (tokens', stack') ->
  SI tokens stack i pos -> 0 <= pos -> (forall p, pos <= p -> char_at text p = char_at (content_at tokens i) p) ->
  QS tokens tokens' /\ SI tokens' stack' (S i) 0.
Proof.
  refine (sq_while_ind quotes i lvl _ _ _).
  - intros tokens stack text pos HS _ _. split; [apply QS_refl | exact (SI_next _ _ _ _ HS)].
  - intros tokens stack text pos q tokens1 stack1 text1 pos1 tokens' stack' FQ ST IH HS P0 TX.
    destruct (sq_step_qs _ _ _ _ _ _ _ _ _ _ _ HS P0 TX FQ ST) as (Q1 & HS1 & P1 & TX1).
    destruct (IH HS1 P1 TX1) as [Q2 HS2]. split; [exact (QS_trans _ _ _ Q1 Q2) | exact HS2].
Qed.

Lemma sq_tokens_qs : forall n i tokens stack inside,
  SI tokens stack i 0 -> QS tokens (sq_tokens n quotes i tokens stack inside).
Proof.
  refine (sq_tokens_ind quotes (fun _ i tokens stack _ out => SI tokens stack i 0 -> QS tokens out) _ _ _).
  - intros; apply QS_refl.
  - intros n i tokens stack inside t out _ IH HS. eapply IH, SI_next, SI_truncate, HS.
  - intros n i tokens stack inside t tokens' stack' out N _ _ W IH HS.
    assert (CE : content_at tokens i = tcontent t) by (unfold content_at; rewrite N; reflexivity).
    destruct (sq_while_qs i (tlevel t) _ _ _ _ _ _ _ W (SI_truncate _ _ _ _ _ HS) ltac:(lia)
                ltac:(intros p _; rewrite CE; reflexivity)) as [A B].
    exact (QS_trans _ _ _ A (IH B)).
Qed.

Theorem process_inlines_qs tokens : QS tokens (process_inlines quotes tokens).
Proof.
  unfold process_inlines. apply sq_tokens_qs. split; [constructor|]. split; constructor.
Qed.

End Quotes.

Theorem smartquotes_inline_qs quotes t :
  match tchildren t, tchildren (smartquotes_inline quotes t) with
  | Some ch, Some ch' => QS quotes ch ch'
  | None, None => True
  | _, _ => False
  end.
Proof.
  unfold smartquotes_inline.
  destruct (negb (str_eqb (ttype t) s_inline) || negb (test Gen.Regexes.re_smartquotes_QUOTE_RE (tcontent t))).
  - destruct (tchildren t); [apply QS_refl | exact I].
  - destruct (tchildren t) as [ch|] eqn:E; [|rewrite E; exact I]. cbn. apply process_inlines_qs.
Qed.

Theorem smartquotes_qs b quotes : forall ts,
  Forall2 (fun t t' => match tchildren t, tchildren t' with
                       | Some ch, Some ch' => QS quotes ch ch' | None, None => True | _, _ => False end)
          ts (smartquotes b quotes ts).
Proof.
  unfold smartquotes. destruct b.
  - induction ts as [|t ts IH]; cbn [map]; constructor; [apply smartquotes_inline_qs | exact IH].
  - induction ts as [|t ts IH]; constructor; [destruct (tchildren t); [apply QS_refl | exact I] | exact IH].
Qed.
