(* The inner scans of the inline model: above a bound computed from the arguments the answer does not
   depend on the fuel (companion of Lemmas/FuelAdequate.v for rules_inline and the post-processing). *)
From MD Require Import Base.Py Model.Inline Lemmas.FuelAdequate Lemmas.InlineSafe.
From Coq Require Import ZifyBool.

Lemma run_len_fuel : forall f1 f2 src pos mx m,
  (Z.to_nat (mx - pos) < f1)%nat -> (Z.to_nat (mx - pos) < f2)%nat -> run_len f1 src pos mx m = run_len f2 src pos mx m.
Proof. fuel_ind f1 f2 IH. cbn [run_len]. fwalk IH. Qed.

Lemma skip_sp_fwd_fuel : forall f1 f2 src pos mx,
  (Z.to_nat (mx - pos) < f1)%nat -> (Z.to_nat (mx - pos) < f2)%nat -> skip_sp_fwd f1 src pos mx = skip_sp_fwd f2 src pos mx.
Proof. fuel_ind f1 f2 IH. cbn [skip_sp_fwd]. fwalk IH. Qed.

Lemma ws_tail_fuel : forall f1 f2 pending ws,
  (Z.to_nat ws < f1)%nat -> (Z.to_nat ws < f2)%nat -> ws_tail f1 pending ws = ws_tail f2 pending ws.
Proof. fuel_ind f1 f2 IH. cbn [ws_tail]. fwalk IH. Qed.

Lemma skip_ws_nl_i_fuel : forall f1 f2 src pos mx,
  (Z.to_nat (mx - pos) < f1)%nat -> (Z.to_nat (mx - pos) < f2)%nat -> skip_ws_nl_i f1 src pos mx = skip_ws_nl_i f2 src pos mx.
Proof. fuel_ind f1 f2 IH. cbn [skip_ws_nl_i]. fwalk IH. Qed.

Lemma autolink_end_fuel : forall f1 f2 src pos mx,
  (Z.to_nat (mx - pos) < f1)%nat -> (Z.to_nat (mx - pos) < f2)%nat -> autolink_end f1 src pos mx = autolink_end f2 src pos mx.
Proof. fuel_ind f1 f2 IH. cbn [autolink_end]. fwalk IH. Qed.

Lemma count_s_close_fuel : forall f1 f2 tokens j,
  (Z.to_nat (len tokens - j) < f1)%nat -> (Z.to_nat (len tokens - j) < f2)%nat -> count_s_close f1 tokens j = count_s_close f2 tokens j.
Proof. fuel_ind f1 f2 IH. cbn [count_s_close]. fwalk IH. Qed.

Lemma st_pass1_fuel : forall f1 f2 ds tokens i lone,
  (Z.to_nat (len ds - i) < f1)%nat -> (Z.to_nat (len ds - i) < f2)%nat -> st_pass1 f1 ds tokens i lone = st_pass1 f2 ds tokens i lone.
Proof. fuel_ind f1 f2 IH. cbn [st_pass1]. fwalk IH. Qed.

Lemma em_pass_fuel : forall f1 f2 ds tokens i,
  (Z.to_nat (i + 1) < f1)%nat -> (Z.to_nat (i + 1) < f2)%nat -> em_pass f1 ds tokens i = em_pass f2 ds tokens i.
Proof. fuel_ind f1 f2 IH. cbn [em_pass]. fwalk IH. Qed.

(* balance_pairs: the opener search walks down the jump table; with the table invariant of
   Lemmas/InlineSafe.v (0 <= jumps[i] <= i) it ends within openerIdx - minOpenerIdx steps *)
Lemma find_opener_d_fuel ds jumps closer c : JI jumps c -> c <= len ds ->
  forall f1 f2 o mn, o < c -> -1 <= mn ->
  (Z.to_nat (o - mn) < f1)%nat -> (Z.to_nat (o - mn) < f2)%nat ->
  find_opener_d f1 ds jumps closer o mn = find_opener_d f2 ds jumps closer o mn.
Proof.
  intros [JL JH] CL. induction f1 as [|f1 IH]; intros f2 o mn Ho Hm B1 B2; [lia|]. destruct f2 as [|f2]; [lia|].
  cbn [find_opener_d].
  destruct (negb (mn <? o)) eqn:NE; [reflexivity|].
  destruct (dget ds o) as [opener|e|]; cbn [bind]; try reflexivity.
  destruct (jget jumps o) as [j|e|] eqn:EJ; cbn [bind]; try reflexivity.
  assert (HJ : 0 <= j <= o).
  { pose proof (jget_safe jumps o ltac:(lia)) as S. rewrite EJ in S. cbn in S. apply JH in S. lia. }
  assert (R : find_opener_d f1 ds jumps closer (o - (j + 1)) mn = find_opener_d f2 ds jumps closer (o - (j + 1)) mn) by (apply IH; lia).
  destruct (negb (d_marker opener =? d_marker closer)); [exact R|].
  destruct (d_open opener && (d_end opener <? 0)); [|exact R]. cbv zeta.
  rewrite R. reflexivity.
Qed.

Lemma pd_loop_fuel : forall f1 f2 ds jumps ob c h lt,
  (Z.to_nat (len ds - c) < f1)%nat -> (Z.to_nat (len ds - c) < f2)%nat ->
  pd_loop f1 ds jumps ob c h lt = pd_loop f2 ds jumps ob c h lt.
Proof. fuel_ind f1 f2 IH. cbn [pd_loop]. fwalk IH. apply IH; rewrite !dupd_len; lia. Qed.

Lemma pd_loop_call ds : forall f, (length ds < f)%nat -> pd_loop f ds [] [] 0 0 (-2) = pd_loop (S (length ds)) ds [] [] 0 0 (-2).
Proof. intros f Hf. apply pd_loop_fuel; unfold len; lia. Qed.
Lemma em_pass_call ds tokens : forall f, (length ds < f)%nat -> em_pass f ds tokens (len ds - 1) = em_pass (S (length ds)) ds tokens (len ds - 1).
Proof. intros f Hf. apply em_pass_fuel; unfold len; lia. Qed.
Lemma st_pass1_call ds tokens : forall f, (length ds < f)%nat -> st_pass1 f ds tokens 0 [] = st_pass1 (S (length ds)) ds tokens 0 [].
Proof. intros f Hf. apply st_pass1_fuel; unfold len; lia. Qed.
