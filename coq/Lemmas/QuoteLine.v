(* C06 / C18: the block rules on a line that starts at an offset inside the source - what the nested block loop
   sees after containers have stripped their markers.  [off_line st pre1 pre2 L bs li lv]: the source is
   pre1 pre2 L LF; the containers have moved bMarks past pre1 (block quote markers) and masked pre2 through tShift /
   sCount / blkIndent (a list marker and its blanks, tab-free); bs is the line's bsCount entry, li the listIndent, lv
   the level.  sCount = blkIndent = len pre2 says that the line stands exactly at the block indent: it is no indented code
   block and passes every indent test.  pre1 = pre2 = [] is the document L LF itself.
   First part: which rules can claim the line, by its first character, and the block loop around one successful
   rule call.  Second part: a line s of the paragraph class (line_ok) becomes one paragraph at the container's level. *)
From RecordUpdate Require Import RecordUpdate.
From MD Require Import Base.Py Base.Str Model.Token Model.Utils Model.StateBlock Model.Block Lemmas.StrLemmas
     Lemmas.Phases Lemmas.QuoteLemmas Lemmas.BlockEff Lemmas.ParaLine.
From Coq Require Import ZifyBool.

Definition off_line (st : bstate) (pre1 pre2 s : str) (bs li lv : Z) : Prop :=
  b_src st = pre1 ++ pre2 ++ s ++ [10]
  /\ b_bMarks st = [len pre1; len pre1 + len pre2 + len s + 1] /\ b_eMarks st = [len pre1 + len pre2 + len s; len pre1 + len pre2 + len s + 1]
  /\ b_tShift st = [len pre2; 0] /\ b_sCount st = [len pre2; 0] /\ b_bsCount st = [bs; 0]
  /\ b_blkIndent st = len pre2 /\ b_lineMax st = 1 /\ b_listIndent st = li /\ b_level st = lv.

(* what the one-line laws say of a rule run on such a line: it succeeds, the line stays as it is, X is appended, the cursor
   is behind the line *)
Definition rule_adds (run : bstate -> res (bool * bstate)) (pre1 pre2 s : str) (bs li lv : Z) (X : list token) : Prop :=
  forall st, off_line st pre1 pre2 s bs li lv -> b_line st = 0 ->
  exists st', run st = Ok (true, st')
    /\ off_line st' pre1 pre2 s bs li lv /\ b_tokens st' = b_tokens st ++ X /\ b_env st' = b_env st /\ b_line st' = 1.

Ltac ol H := destruct H as (?Hsrc & ?HbM & ?HeM & ?HtS & ?HsC & ?HbS & ?HbI & ?HlM & ?HlI & ?Hlv).

Lemma tb_set2 a b v : tb_set [a; b] 0 v = Ok [v; b].
Proof. reflexivity. Qed.
Lemma tb2 a b : tb [a; b] 0 = Ok a.
Proof. reflexivity. Qed.

Lemma char_at_app (p : str) c r : char_at (p ++ c :: r) (len p) = Some c.
Proof.
  unfold char_at, get. pose proof (len_nonneg p). assert (B : (len p <? 0) = false) by lia. cbv zeta. rewrite !B.
  unfold len. rewrite Nat2Z.id. apply nth_error_app_mid.
Qed.

(* The rules that can claim a line of a one-line range, judged by its first character alone: table and lheading need a
   second line, code four columns of indent; paragraph is never ruled out this way. *)
Definition claims (n : str) (c : Z) : bool :=
  if str_eqb n nm_table then false
  else if str_eqb n nm_code then false
  else if str_eqb n nm_fence then (c =? 126) || (c =? 96)
  else if str_eqb n nm_blockquote then c =? 62
  else if str_eqb n nm_hr then (c =? 42) || (c =? 45) || (c =? 95)
  else if str_eqb n nm_list then is_digit c || (c =? 42) || (c =? 45) || (c =? 43)
  else if str_eqb n nm_reference then c =? 91
  else if str_eqb n nm_html_block then c =? 60
  else if str_eqb n nm_heading then c =? 35
  else if str_eqb n nm_lheading then false
  else if str_eqb n nm_paragraph then true
  else false.

Lemma claims_table c : claims nm_table c = false.
Proof. reflexivity. Qed.
Lemma claims_code c : claims nm_code c = false.
Proof. reflexivity. Qed.
Lemma claims_fence c : claims nm_fence c = (c =? 126) || (c =? 96).
Proof. reflexivity. Qed.
Lemma claims_blockquote c : claims nm_blockquote c = (c =? 62).
Proof. reflexivity. Qed.
Lemma claims_hr c : claims nm_hr c = (c =? 42) || (c =? 45) || (c =? 95).
Proof. reflexivity. Qed.

Section ApplyRule.
Context (cfg : bcfg) (rf cf : str -> str) (rec : rec_t) (term : term_t) (st : bstate) (sl el : Z) (silent : bool).
Lemma apply_rule_blockquote : apply_rule cfg rf cf rec term nm_blockquote st sl el silent = r_blockquote cfg rec term st sl el silent.
Proof. reflexivity. Qed.
Lemma apply_rule_list : apply_rule cfg rf cf rec term nm_list st sl el silent = r_list cfg rec term st sl el silent.
Proof. reflexivity. Qed.
Lemma apply_rule_heading : apply_rule cfg rf cf rec term nm_heading st sl el silent = r_heading cfg st sl el silent.
Proof. reflexivity. Qed.
Lemma apply_rule_paragraph : apply_rule cfg rf cf rec term nm_paragraph st sl el silent = r_paragraph term st sl el silent.
Proof. reflexivity. Qed.
End ApplyRule.

Section Line.
Context (cfg : bcfg) (pre1 pre2 L : str) (bs li lv : Z).
Notation off := (len pre1 + len pre2).
Notation here st := (off_line st pre1 pre2 L bs li lv).

Lemma ls0 st : here st -> line_start st 0 = Ok off.
Proof. intros H. ol H. unfold line_start. rewrite HbM, HtS. reflexivity. Qed.
Lemma em0 st : here st -> tb (b_eMarks st) 0 = Ok (off + len L).
Proof. intros H. ol H. rewrite HeM. reflexivity. Qed.
Lemma sc0 st : here st -> tb (b_sCount st) 0 = Ok (len pre2).
Proof. intros H. ol H. rewrite HsC. reflexivity. Qed.
Lemma cb0 st : here st -> code_block_at cfg st 0 = Ok false.
Proof.
  intros H. unfold code_block_at, is_code_block. rewrite (sc0 st H). cbn [bind]. ol H. rewrite HbI.
  rewrite Z.sub_diag. change (4 <=? 0) with false. rewrite Bool.andb_false_r. reflexivity.
Qed.

End Line.

Arguments ls0 {pre1 pre2 L bs li lv} st _.
Arguments em0 {pre1 pre2 L bs li lv} st _.
Arguments sc0 {pre1 pre2 L bs li lv} st _.
Arguments cb0 cfg {pre1 pre2 L bs li lv} st _.

Section Head.
Context (cfg : bcfg) (rf cf : str -> str).
Context (pre1 pre2 : str) (c : Z) (r : str) (bs li lv : Z).
Notation L := (c :: r).
Notation off := (len pre1 + len pre2).
Notation here st := (off_line st pre1 pre2 L bs li lv).

(* what a rule that answers no may do to the state: change parentType (lheading does) *)
Definition same_off (st st' : bstate) : Prop :=
  here st' /\ b_tokens st' = b_tokens st /\ b_env st' = b_env st /\ b_line st' = b_line st /\ b_tight st' = b_tight st.

Lemma same_off_refl st : here st -> same_off st st.
Proof. intros H. repeat split; try reflexivity; apply H. Qed.

Lemma off_src st : here st -> b_src st = (pre1 ++ pre2) ++ c :: r ++ [10].
Proof. intros (Hsrc & _). rewrite Hsrc, <- app_assoc. reflexivity. Qed.

Lemma head_char st : here st -> char_at (b_src st) off = Some c /\ py_idx (b_src st) off = Ok c.
Proof. intros H. rewrite (off_src st H), <- len_app. split; [apply char_at_app | apply py_idx_app]. Qed.

Lemma line_nonempty : (off + len L <=? off) = false.
Proof. rewrite len_cons. pose proof (len_nonneg r). lia. Qed.

Lemma empty0 st : here st -> is_empty st 0 = Ok false.
Proof. intros H. unfold is_empty. rewrite (ls0 st H), (em0 st H). cbn [bind]. rewrite line_nonempty. reflexivity. Qed.

Lemma r_table_fail term st : r_table cfg term st 0 1 false = Ok (false, st).
Proof. unfold r_table. change (1 <? 0 + 2) with true. reflexivity. Qed.

Lemma r_code_fail st : here st -> r_code cfg st 0 1 false = Ok (false, st).
Proof. intros H. unfold r_code. rewrite (cb0 cfg st H). reflexivity. Qed.

Lemma r_fence_fail st : (c =? 126) || (c =? 96) = false -> here st -> r_fence cfg st 0 1 false = Ok (false, st).
Proof.
  intros C H. unfold r_fence. rewrite (ls0 st H), (em0 st H), (cb0 cfg st H). cbn [bind]. cbv iota.
  match goal with |- (if ?b then _ else _) = _ => destruct b end; [reflexivity|].
  rewrite (proj2 (head_char st H)). cbn [bind]. rewrite C. reflexivity.
Qed.

Lemma r_blockquote_fail rec term st : (c =? 62) = false -> here st -> r_blockquote cfg rec term st 0 1 false = Ok (false, st).
Proof.
  intros C H. unfold r_blockquote. rewrite (ls0 st H), (em0 st H), (cb0 cfg st H). cbn [bind]. cbv iota.
  rewrite match_some_62, (proj1 (head_char st H)), C. reflexivity.
Qed.

Lemma r_hr_fail st : (c =? 42) || (c =? 45) || (c =? 95) = false -> here st -> r_hr cfg st 0 1 false = Ok (false, st).
Proof.
  intros C H. unfold r_hr. rewrite (ls0 st H), (em0 st H), (cb0 cfg st H). cbn [bind]. cbv iota.
  rewrite (proj1 (head_char st H)), C. reflexivity.
Qed.

Lemma r_heading_fail st : (c =? 35) = false -> here st -> r_heading cfg st 0 1 false = Ok (false, st).
Proof.
  intros C H. unfold r_heading. rewrite (ls0 st H), (em0 st H), (cb0 cfg st H). cbn [bind]. cbv iota.
  rewrite line_nonempty, (proj2 (head_char st H)). cbn [bind]. rewrite C. reflexivity.
Qed.

Lemma r_html_block_fail st : (c =? 60) = false -> here st -> r_html_block cfg st 0 1 false = Ok (false, st).
Proof.
  intros C H. unfold r_html_block. rewrite (ls0 st H), (em0 st H), (cb0 cfg st H). cbn [bind]. cbv iota.
  destruct (negb (c_html cfg)); [reflexivity|].
  rewrite line_nonempty, (proj2 (head_char st H)). cbn [bind]. rewrite C. reflexivity.
Qed.

Lemma r_reference_fail term st : (c =? 91) = false -> here st -> r_reference cfg rf cf term st 0 1 false = Ok (false, st).
Proof.
  intros C H. unfold r_reference. rewrite (ls0 st H), (em0 st H), (cb0 cfg st H). cbn [bind]. cbv iota.
  rewrite (proj2 (head_char st H)). cbn [bind]. rewrite C. reflexivity.
Qed.

Lemma skip_ordered_nondigit st : is_digit c = false -> here st -> skip_ordered st 0 = Ok (-1).
Proof.
  intros D H. unfold skip_ordered. rewrite (ls0 st H), (em0 st H). cbn [bind].
  destruct (off + len L <=? off + 1); [reflexivity|]. rewrite (proj2 (head_char st H)). cbn [bind]. rewrite D. reflexivity.
Qed.

Lemma r_list_fail rec term st : is_digit c || (c =? 42) || (c =? 45) || (c =? 43) = false -> here st ->
  r_list cfg rec term st 0 1 false = Ok (false, st).
Proof.
  destruct (is_digit c) eqn:D; intros C H; [discriminate C|]. cbn [orb] in C.
  rewrite r_list_eq. enough (list_head cfg st 0 false = Ok None) as -> by reflexivity.
  unfold list_head. rewrite (cb0 cfg st H), (sc0 st H). cbn [bind]. cbv iota.
  pose proof H as (_ & _ & _ & _ & _ & _ & -> & _). rewrite Z.ltb_irrefl, Bool.andb_false_r. cbv iota.
  rewrite (skip_ordered_nondigit st D H), (ls0 st H). cbn [bind]. change (0 <=? -1) with false. cbv iota.
  unfold skip_bullet. rewrite (ls0 st H), (em0 st H). cbn [bind]. rewrite (proj1 (head_char st H)), C. reflexivity.
Qed.

(* lheading finds no line to continue on and leaves parentType at "paragraph" *)
Lemma r_lheading_fail term st : here st -> exists st', r_lheading cfg term st 0 1 false = Ok (false, st') /\ same_off st st'.
Proof.
  intros H. unfold r_lheading. rewrite (cb0 cfg st H). cbn [bind]. cbv iota.
  eexists. split; [reflexivity|]. unfold same_off, off_line, st_parent. cbn. repeat split; try reflexivity; apply H.
Qed.

(* a rule that cannot claim the line answers no and returns the state it was given; lheading, which has set
   parentType by then, returns another one *)
Lemma apply_rule_unclaimed_eq rec term n st : claims n c = false -> str_eqb n nm_lheading = false -> here st ->
  apply_rule cfg rf cf rec term n st 0 1 false = Ok (false, st).
Proof.
  intros C N H. apply (apply_rule_cases cfg rf cf (fun a => a = Ok (false, st))); try intros ->.
  - apply r_table_fail.
  - apply r_code_fail, H.
  - exact (r_fence_fail st C H).
  - exact (r_blockquote_fail rec term st C H).
  - exact (r_hr_fail st C H).
  - exact (r_list_fail rec term st C H).
  - exact (r_reference_fail term st C H).
  - exact (r_html_block_fail st C H).
  - exact (r_heading_fail st C H).
  - discriminate N.
  - discriminate C.
  - reflexivity.
Qed.

Lemma apply_rule_unclaimed rec term n st : claims n c = false -> here st ->
  exists st1, apply_rule cfg rf cf rec term n st 0 1 false = Ok (false, st1) /\ same_off st st1.
Proof.
  intros C H. destruct (str_eqb n nm_lheading) eqn:N.
  - apply str_eqb_eq in N. subst n. exact (r_lheading_fail term st H).
  - exists st. split; [exact (apply_rule_unclaimed_eq rec term n st C N H) | exact (same_off_refl st H)].
Qed.

(* the chain up to the first rule that succeeds: the rules before it answer no and leave the line as it is (lheading
   leaves parentType changed, hence [same_off] and not equality) *)
Lemma try_rules_reach rec name rest X : forall before st,
  (forall st n, here st -> In n before ->
     exists st1, apply_rule cfg rf cf rec (terminated cfg rf cf) n st 0 1 false = Ok (false, st1) /\ same_off st st1) ->
  rule_adds (fun st => apply_rule cfg rf cf rec (terminated cfg rf cf) name st 0 1 false) pre1 pre2 L bs li lv X ->
  here st -> b_line st = 0 ->
  exists st2, try_rules cfg rf cf rec (before ++ name :: rest) st 0 1 = Ok st2
    /\ here st2 /\ b_tokens st2 = b_tokens st ++ X /\ b_env st2 = b_env st /\ b_line st2 = 1.
Proof.
  induction before as [|n l IH]; intros st F S O L0; cbn [app try_rules].
  - destruct (S st O L0) as (st2 & -> & R). exists st2. split; [reflexivity | exact R].
  - destruct (F st n O (or_introl eq_refl)) as (st1 & -> & O1 & T1 & E1 & L1 & _). cbn [bind]. cbv iota.
    rewrite <- T1, <- E1. apply IH; [intros s m Os I; exact (F s m Os (or_intror I)) | exact S | exact O1 | rewrite L1; exact L0].
Qed.

Lemma tok_head_off st : lv < c_maxNesting cfg -> here st -> tok_head cfg st 0 1 = Ok (0, true).
Proof.
  intros Hn H. pose proof H as H'. ol H'. unfold tok_head. cbn [skip_empty_lines]. rewrite HlM.
  change (negb (0 <? 1)) with false. cbv iota. rewrite (empty0 st H). cbv zeta iota. change (1 <=? 0) with false. cbv iota.
  rewrite (sc0 st H). cbn [bind]. rewrite HbI, Hlv, Z.ltb_irrefl.
  assert (E : (c_maxNesting cfg <=? lv) = false) by lia. rewrite E. reflexivity.
Qed.
Lemma tok_next_off st2 hel : here st2 -> b_line st2 = 1 -> tok_next st2 1 hel = Ok (1, hel).
Proof.
  intros H L2. unfold tok_next. rewrite L2. change (1 - 1 <? 1) with true. change (1 <? 1) with false. cbv iota zeta.
  change (1 - 1) with 0. rewrite (empty0 st2 H). cbn [bind]. rewrite Bool.orb_false_r. reflexivity.
Qed.

Lemma tokenize_one d st st2 : lv < c_maxNesting cfg -> here st ->
  try_rules cfg rf cf (tokenize cfg rf cf d) (c_rules cfg) (st_line st 0) 0 1 = Ok st2 ->
  here st2 -> b_line st2 = 1 ->
  tokenize cfg rf cf (S d) st 0 1 = Ok (st_line (st2 <| b_tight := true |>) 1).
Proof.
  intros Hn O0 TR O2 L2. cbn [tokenize]. rewrite tok_loop_round. change (negb (0 <? 1)) with false. cbv iota.
  rewrite (tok_head_off st Hn O0). cbn [bind]. cbv iota. rewrite TR. cbn [bind].
  rewrite (tok_next_off st2 false O2 L2). cbn [bind]. cbv iota.
  change (Z.to_nat (1 - 0)) with 1%nat. rewrite tok_loop_round. reflexivity.
Qed.

Lemma tokenize_reach d name before rest X : lv < c_maxNesting cfg -> c_rules cfg = before ++ name :: rest ->
  (forall st n, here st -> In n before ->
     exists st1, apply_rule cfg rf cf (tokenize cfg rf cf d) (terminated cfg rf cf) n st 0 1 false = Ok (false, st1) /\ same_off st st1) ->
  rule_adds (fun st => apply_rule cfg rf cf (tokenize cfg rf cf d) (terminated cfg rf cf) name st 0 1 false) pre1 pre2 L bs li lv X ->
  forall st, here st ->
  exists st', tokenize cfg rf cf (S d) st 0 1 = Ok st'
    /\ here st' /\ b_tokens st' = b_tokens st ++ X /\ b_env st' = b_env st /\ b_line st' = 1 /\ b_tight st' = true.
Proof.
  intros Hn HC F S st O0.
  destruct (try_rules_reach (tokenize cfg rf cf d) name rest X before (st_line st 0) F S O0 eq_refl) as (st2 & TR & O2 & T2 & E2 & L2).
  rewrite <- HC in TR. rewrite (tokenize_one d st st2 Hn O0 TR O2 L2).
  eexists. split; [reflexivity|]. split; [exact O2|]. split; [exact T2|]. split; [exact E2|]. split; reflexivity.
Qed.

End Head.

Arguments off_src {pre1 pre2 c r bs li lv} st _.
Arguments head_char {pre1 pre2 c r bs li lv} st _.

Lemma para_scan_stop term fuel chain st cu : para_scan (S fuel) term chain st 1 1 cu = Ok (1, None, st).
Proof. reflexivity. Qed.

Lemma letter_unclaimed n c : letter c -> str_eqb n nm_paragraph = false -> claims n c = false.
Proof.
  unfold claims, letter, is_digit. intros L ->.
  repeat match goal with |- (if ?b then _ else _) = _ => destruct b end; lia.
Qed.

Section Para.
Context (cfg : bcfg) (rf cf : str -> str).
Context (pre1 pre2 s : str) (bs li lv : Z) (Hs : line_ok s).
Context (Hp2 : forall x, In x pre2 -> x <> 9).
Notation off := (len pre1 + len pre2).
Notation here st := (off_line st pre1 pre2 s bs li lv).

(* the scan of getLines passes over the masked marker characters column by column *)
Lemma gl_mask src lineStart indent ts bsv last : forall p2 A rest k fuel,
  src = A ++ p2 ++ rest -> (forall x, In x p2 -> x <> 9) ->
  len A - lineStart + len p2 <= ts -> k + len p2 <= indent -> len A + len p2 <= last -> (length p2 <= fuel)%nat ->
  gl_scan fuel src (len A) last lineStart k indent ts bsv
  = gl_scan (fuel - length p2) src (len A + len p2) last lineStart (k + len p2) indent ts bsv.
Proof.
  induction p2 as [|c p2 IH]; intros A rest k fuel E NT HT HK HL HF.
  - cbn [length]. rewrite Nat.sub_0_r. change (len (@nil Z)) with 0. rewrite !Z.add_0_r. reflexivity.
  - destruct fuel as [|f]; [cbn [length] in HF; lia|]. cbn [gl_scan].
    rewrite len_cons in *. pose proof (len_nonneg p2).
    assert (C1 : ((len A <? last) && (k <? indent)) = true) by lia. rewrite C1.
    assert (PI : py_idx src (len A) = Ok c) by (rewrite E; cbn [app]; apply py_idx_app). rewrite PI. cbn [bind].
    assert (N9 : (c =? 9) = false) by (pose proof (NT c (or_introl eq_refl)); lia). rewrite N9.
    assert (M : (len A - lineStart <? ts) = true) by lia. rewrite M.
    assert (SAME : (if is_space c then gl_scan f src (len A + 1) last lineStart (k + 1) indent ts bsv
                    else gl_scan f src (len A + 1) last lineStart (k + 1) indent ts bsv)
                   = gl_scan f src (len A + 1) last lineStart (k + 1) indent ts bsv) by (destruct (is_space c); reflexivity).
    rewrite SAME.
    replace (len A + 1) with (len (A ++ [c])) by (rewrite len_app; reflexivity).
    rewrite (IH (A ++ [c]) rest (k + 1) f).
    + cbn [length Nat.sub]. rewrite len_app. change (len [c]) with 1. f_equal; lia.
    + rewrite E, <- app_assoc. reflexivity.
    + intros x I. apply NT. right. exact I.
    + rewrite len_app. change (len [c]) with 1. lia.
    + lia.
    + rewrite len_app. change (len [c]) with 1. lia.
    + cbn [length] in HF. lia.
Qed.

Lemma get_lines0 st : here st -> get_lines st 0 1 (len pre2) false = Ok s.
Proof.
  intros H. ol H. unfold get_lines. change (1 <=? 0) with false. cbv iota.
  change (Z.to_nat (1 - 0)) with 1%nat. cbn [get_lines_loop]. change (negb (0 <? 1)) with false. cbv iota.
  rewrite HbM, HeM, HtS, HbS, !tb2. cbn [bind].
  change (0 + 1 <? 1) with false. cbn [orb]. cbv iota.
  pose proof (len_nonneg pre1). pose proof (len_nonneg pre2). pose proof (len_nonneg s).
  rewrite (gl_mask (b_src st) (len pre1) (len pre2) (len pre2) bs (off + len s) pre2 pre1 (s ++ [10]) 0 (S (length (b_src st)))); try lia; try assumption.
  2:{ rewrite Hsrc, !app_length. lia. }
  replace (S (length (b_src st)) - length pre2)%nat with (S (length (b_src st) - length pre2)) by (rewrite Hsrc, !app_length; lia).
  cbn [gl_scan]. rewrite Z.add_0_l, Z.ltb_irrefl, Bool.andb_false_r. cbn [bind]. rewrite Z.ltb_irrefl.
  cbn [get_lines_loop]. cbn [negb]. cbv iota. cbn [bind app].
  rewrite ?app_nil_r, Hsrc. rewrite app_assoc. rewrite <- len_app. rewrite (slice_app_mid (pre1 ++ pre2) s [10]). reflexivity.
Qed.

Lemma r_paragraph_line term st : here st ->
  exists st', r_paragraph term st 0 1 false = Ok (true, st')
    /\ here st' /\ b_tokens st' = b_tokens st ++ para_tokens s lv /\ b_env st' = b_env st /\ b_line st' = 1.
Proof.
  intros H. unfold r_paragraph. pose proof H as H'. ol H'. rewrite HlM.
  change (Z.to_nat (1 - 0)) with 1%nat. change (0 + 1) with 1. rewrite para_scan_stop. cbn [bind].
  assert (GL : get_lines (st_parent st nm_paragraph) 0 1 (b_blkIndent (st_parent st nm_paragraph)) false = Ok s).
  { change (b_blkIndent (st_parent st nm_paragraph)) with (b_blkIndent st). rewrite HbI. apply get_lines0.
    unfold off_line, st_parent. cbn. repeat split; assumption. }
  rewrite GL. cbn [bind]. destruct Hs as [_ ST]. rewrite ST.
  eexists. split; [reflexivity|].
  unfold off_line, st_parent, st_line, push_inline, para_tokens. cbn. rewrite Hlv. cbn.
  change (0 <? -1) with false. change (-1 <? 0) with true. change (0 <? 0) with false. change (0 <? 1) with true. change (1 <? 0) with false.
  cbv iota. replace (lv + 1 - 1) with lv by lia.
  repeat split; try assumption; try reflexivity. rewrite <- !app_assoc. reflexivity.
Qed.

Context (rpre rpost : list str).
Context (HR : c_rules cfg = rpre ++ nm_paragraph :: rpost).
Context (Hpre : Forall (fun n => str_eqb n nm_paragraph = false) rpre).
Context (Hnest : lv < c_maxNesting cfg).

Theorem tokenize_off_line d st : here st ->
  exists st', tokenize cfg rf cf (S d) st 0 1 = Ok st'
    /\ here st' /\ b_tokens st' = b_tokens st ++ para_tokens s lv /\ b_env st' = b_env st /\ b_line st' = 1
    /\ b_tight st' = true.
Proof.
  pose proof Hs as [(c0 & body & ES & LT & _) _].
  pose proof (tokenize_reach cfg rf cf pre1 pre2 c0 body bs li lv d nm_paragraph rpre rpost (para_tokens s lv) Hnest HR) as R.
  rewrite <- ES in R. revert st. apply R.
  - intros st n O I. rewrite Forall_forall in Hpre. rewrite ES in *. apply apply_rule_unclaimed; [apply letter_unclaimed; auto | exact O].
  - intros st O _. rewrite apply_rule_paragraph. exact (r_paragraph_line (terminated cfg rf cf) st O).
Qed.

End Para.

Lemma init_line c body env toks : is_space c = false -> c <> 10 -> (forall x, In x body -> x <> 10) ->
  off_line (state_init ((c :: body) ++ [10]) env toks) [] [] (c :: body) 0 (-1) 0 /\ b_tokens (state_init ((c :: body) ++ [10]) env toks) = toks
  /\ b_env (state_init ((c :: body) ++ [10]) env toks) = env /\ b_line (state_init ((c :: body) ++ [10]) env toks) = 0.
Proof.
  intros Hsp Hn NB. unfold state_init. change ((c :: body) ++ [10]) with (c :: body ++ [10]).
  pose proof (scan_text_line 0 c body (len (c :: body ++ [10])) [] [] [] [] 0 0 Hsp Hn NB) as SC.
  cbn [repeat_z app] in SC.
  assert (HL : len (c :: body ++ [10]) = len body + 2) by (rewrite len_cons, len_app; change (len [10]) with 1; lia).
  rewrite SC by (rewrite HL; change (Z.of_nat 0) with 0; lia).
  cbv zeta. cbn [sc_bM sc_eM sc_tS sc_sC rev app map].
  unfold off_line. cbn [b_src b_bMarks b_eMarks b_tShift b_sCount b_bsCount b_blkIndent b_lineMax b_listIndent b_level b_tokens b_env b_line].
  rewrite HL, !len_cons. change (Z.of_nat 0) with 0. change (len (@nil Z)) with 0. cbn [app].
  repeat split; try reflexivity; try (f_equal; try lia; f_equal; lia).
Qed.

(* the tokens of the two one-container documents  "> " s LF  and  "- " s LF *)
Definition bq_open_tok : token :=
  map_tok 0 1 (set_markup (set_level (set_block (new_token [98; 108; 111; 99; 107; 113; 117; 111; 116; 101; 95; 111; 112; 101; 110] nm_blockquote 1) true) 0) [62]).
Definition bq_close_tok : token :=
  set_markup (set_level (set_block (new_token [98; 108; 111; 99; 107; 113; 117; 111; 116; 101; 95; 99; 108; 111; 115; 101] nm_blockquote (-1)) true) 0) [62].

Definition deeper (t : token) : token := set_level t (tlevel t + 1).

Definition ul_open_tok : token :=
  map_tok 0 1 (set_markup (set_level (set_block (new_token [98; 117; 108; 108; 101; 116; 95; 108; 105; 115; 116; 95; 111; 112; 101; 110] [117; 108] 1) true) 0) [45]).
Definition ul_close_tok : token :=
  set_markup (set_level (set_block (new_token [98; 117; 108; 108; 101; 116; 95; 108; 105; 115; 116; 95; 99; 108; 111; 115; 101] [117; 108] (-1)) true) 0) [45].
Definition li_open_tok : token :=
  map_tok 0 1 (set_markup (set_level (set_block (new_token s_list_item_open s_li 1) true) 1) [45]).
Definition li_close_tok : token :=
  set_markup (set_level (set_block (new_token s_list_item_close s_li (-1)) true) 1) [45].
(* the paragraph of a tight list: open and close are hidden *)
Definition hide_para (l : list token) : list token :=
  match l with [o; i; c] => [set_hidden o true; i; set_hidden c true] | _ => l end.

Definition deeper2 (t : token) : token := set_level t (tlevel t + 2).

(* the hypotheses of the quote law are met: the commonmark chain and a line *)
Example quote_line_example :
  line_ok [102; 111; 111; 32; 42; 98; 42]
  /\ [nm_table; nm_code; nm_fence; nm_blockquote; nm_hr; nm_list; nm_reference; nm_html_block; nm_heading; nm_lheading; nm_paragraph]
     = [nm_table; nm_code; nm_fence] ++ nm_blockquote :: [nm_hr; nm_list; nm_reference; nm_html_block; nm_heading; nm_lheading; nm_paragraph].
Proof.
  split; [|reflexivity]. constructor; [|reflexivity].
  exists 102, [111; 111; 32; 42; 98; 42]. split; [reflexivity|]. split; [left; lia|].
  intros x H. cbn in H. repeat (destruct H as [<-|H]; [discriminate|]). contradiction.
Qed.
