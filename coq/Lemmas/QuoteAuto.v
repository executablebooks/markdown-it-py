(* C19: smartquotes leaves the text of autolinks untouched.  process_inlines only rewrites the content of the token it
   is scanning and of tokens whose quotes it has put on its stack of openers; it scans a token only when it is a text
   token outside every autolink (the counter of open  link_open(auto)  tokens is zero).  Hence the content of every
   other token - in particular of every text token between link_open(auto) and link_close(auto) - is returned as is. *)
From MD Require Import Base.Py Model.Token Model.Render Model.Core Lemmas.StrLemmas Lemmas.CoreLemmas
     Lemmas.QuoteSubst.
From Coq Require Import ZifyBool.

(* what the for loop reads of a token: type and info decide whether it is scanned, the level is what the stack is cut
   back to; content updates change none of them (hdr_set) *)
Definition hdr (tokens : list token) (j : nat) : option (str * str * Z) :=
  option_map (fun t => (ttype t, tinfo t, tlevel t)) (nth_error tokens j).

Lemma hdr_set tokens i c j : hdr (set_content_at tokens i c) j = hdr tokens j.
Proof.
  unfold hdr, set_content_at. rewrite nth_error_update_nth.
  destruct (Nat.eqb i j); [|reflexivity]. destruct (nth_error tokens j); reflexivity.
Qed.

Lemma content_set_other tokens i c j : j <> i -> content_at (set_content_at tokens i c) j = content_at tokens j.
Proof. intros N. rewrite content_set. assert (E : Nat.eqb i j = false) by (apply Nat.eqb_neq; congruence). rewrite E. reflexivity. Qed.

Lemma truncate_not_in stack lvl j : ~ In j (map sq_token stack) -> ~ In j (map sq_token (truncate_stack stack lvl)).
Proof.
  destruct (truncate_suffix stack lvl) as (pre & E). intros NS I. apply NS. rewrite E, map_app. apply in_or_app. right. exact I.
Qed.

Definition auto_open (t : token) : bool := str_eqb (ttype t) s_link_open && str_eqb (tinfo t) s_auto.
Definition auto_close (t : token) : bool := str_eqb (ttype t) s_link_close && str_eqb (tinfo t) s_auto.
(* the counter after the last token of [tokens] (as the loop computes it), starting from [inside] before the first *)
Fixpoint depth_after (tokens : list token) (inside : Z) : Z :=
  match tokens with
  | [] => inside
  | t :: r => depth_after r (let a := if auto_open t then inside + 1 else inside in if auto_close t then a - 1 else a)
  end.

Lemma depth_after_hdr t1 t2 : (forall j, hdr t1 j = hdr t2 j) -> forall k i inside,
  depth_after (firstn k (skipn i t1)) inside = depth_after (firstn k (skipn i t2)) inside.
Proof.
  intros E. induction k as [|k IH]; intros i inside; [reflexivity|].
  pose proof (E i) as Ei. unfold hdr in Ei.
  destruct (nth_error t1 i) as [a|] eqn:N1, (nth_error t2 i) as [b|] eqn:N2; cbn [option_map] in Ei; try discriminate Ei.
  - injection Ei as E1 E2 _. rewrite (skipn_cons_nth _ _ _ N1), (skipn_cons_nth _ _ _ N2). cbn [firstn depth_after].
    unfold auto_open, auto_close. rewrite E1, E2. apply IH.
  - apply nth_error_None in N1, N2. rewrite !skipn_all2 by assumption. reflexivity.
Qed.

(* With n rounds left and the cursor at i, the loop does not write token j: j lies before the cursor, or beyond what the
   rounds reach, or is no text token (or no token at all), or an autolink is open at it. *)
Definition spared (n i : nat) (tokens : list token) (inside : Z) (j : nat) : Prop :=
  (j < i)%nat \/ (i + n <= j)%nat \/ (forall t, nth_error tokens j = Some t -> str_eqb (ttype t) s_text = false)
  \/ depth_after (firstn (S j - i) (skipn i tokens)) inside <> 0.

Lemma spared_next n tokens i t inside j : nth_error tokens i = Some t ->
  spared (S n) i tokens inside j -> spared n (S i) tokens (sq_inside t inside) j.
Proof.
  intros N [L|[G|[T|D]]]; [left; lia | right; left; lia | right; right; left; exact T|].
  destruct (Nat.lt_ge_cases j (S i)) as [L|G]; [left; exact L | right; right; right].
  rewrite (skipn_cons_nth _ _ _ N) in D. replace (S j - i)%nat with (S (S j - S i)) in D by lia. exact D.
Qed.

Lemma spared_hdr n i t1 t2 inside j : (forall k, hdr t1 k = hdr t2 k) -> spared n i t2 inside j -> spared n i t1 inside j.
Proof.
  intros E [L|[G|[T|D]]]; [left; exact L | right; left; exact G | |].
  - right; right; left. intros t N. pose proof (E j) as Ej. unfold hdr in Ej. rewrite N in Ej.
    destruct (nth_error t2 j) as [u|] eqn:N2; [|discriminate Ej]. injection Ej as -> _ _. exact (T u eq_refl).
  - right; right; right. rewrite (depth_after_hdr _ _ E). exact D.
Qed.

Lemma scanned_not_spared n tokens i t inside : nth_error tokens i = Some t ->
  str_eqb (ttype t) s_text = true -> sq_inside t inside = 0 -> ~ spared (S n) i tokens inside i.
Proof.
  intros N ET EI [L|[G|[T|D]]]; [lia | lia | rewrite (T t N) in ET; discriminate ET|].
  apply D. rewrite (skipn_cons_nth _ _ _ N). replace (S i - i)%nat with 1%nat by lia. exact EI.
Qed.

Section Autolinks.
Context (quotes : list str).

Lemma sq_step_frame i lvl tokens stack text q tokens1 stack1 text1 pos1 :
  sq_step quotes i lvl tokens stack text q tokens1 stack1 text1 pos1 ->
  (forall j, j <> i -> ~ In j (map sq_token stack) -> content_at tokens1 j = content_at tokens j)
  /\ (forall it, In it stack1 -> sq_token it = i \/ In it stack)
  /\ (forall j, hdr tokens1 j = hdr tokens j).
Proof.
  intros ST. destruct ST as [| |single|single it below ko kc FO].
  - split; [reflexivity|]. split; [intros it I; right; exact I | reflexivity].
  - split; [intros j N _; apply content_set_other, N|]. split; [intros it I; right; exact I | intros j; apply hdr_set].
  - split; [reflexivity|]. split; [|reflexivity]. intros it [<-|I]; [left; reflexivity | right; exact I].
  - destruct (find_opener_split _ _ _ _ _ FO) as (pre & ->). unfold tokens2, tokens1. split; [|split].
    + intros j N1 N2. rewrite content_set_other; [apply content_set_other, N1|].
      intros E. apply N2. rewrite map_app. apply in_or_app. right. left. symmetry. exact E.
    + intros x I. right. apply in_or_app. right. right. exact I.
    + intros j. rewrite !hdr_set. reflexivity.
Qed.

Lemma sq_while_frame i lvl : forall fuel tokens stack text pos tokens' stack',
  sq_while fuel quotes i lvl tokens stack text pos = (tokens', stack') ->
  (forall j, j <> i -> ~ In j (map sq_token stack) -> content_at tokens' j = content_at tokens j)
  /\ (forall it, In it stack' -> sq_token it = i \/ In it stack)
  /\ (forall j, hdr tokens' j = hdr tokens j).
Proof.
  refine (sq_while_ind quotes i lvl _ _ _).
  - intros tokens stack _ _. split; [reflexivity|]. split; [intros it I; right; exact I | reflexivity].
  - intros tokens stack text pos q tokens1 stack1 text1 pos1 tokens' stack' _ ST (A & B & C).
    destruct (sq_step_frame _ _ _ _ _ _ _ _ _ _ ST) as (A1 & B1 & C1).
    split; [|split].
    + intros j N1 N2. rewrite A; [exact (A1 j N1 N2) | exact N1 |].
      intros I. apply in_map_iff in I. destruct I as (x & <- & Ix). destruct (B1 x Ix) as [E|I2]; [exact (N1 E)|].
      apply N2, in_map, I2.
    + intros x I. destruct (B x I) as [E|I1]; [left; exact E | exact (B1 x I1)].
    + intros j. rewrite C. apply C1.
Qed.

Lemma sq_tokens_frame : forall n i tokens stack inside j,
  ~ In j (map sq_token stack) -> spared n i tokens inside j ->
  content_at (sq_tokens n quotes i tokens stack inside) j = content_at tokens j.
Proof.
  refine (sq_tokens_ind quotes (fun n i tokens stack inside out => forall j, ~ In j (map sq_token stack) ->
            spared n i tokens inside j -> content_at out j = content_at tokens j) _ _ _).
  - reflexivity.
  - intros n i tokens stack inside t out N IH j NS C. exact (IH j (truncate_not_in _ _ _ NS) (spared_next _ _ _ _ _ _ N C)).
  - intros n i tokens stack inside t tokens' stack' out N ET EI W IH j NS C.
    assert (NJ : j <> i) by (intros ->; exact (scanned_not_spared _ _ _ _ _ N ET EI C)).
    pose proof (truncate_not_in _ (tlevel t) _ NS) as TS.
    destruct (sq_while_frame i (tlevel t) _ _ _ _ _ _ _ W) as (A & B & H).
    rewrite IH; [exact (A j NJ TS) | | exact (spared_hdr _ _ _ _ _ _ H (spared_next _ _ _ _ _ _ N C))].
    intros I. apply in_map_iff in I. destruct I as (x & <- & Ix). destruct (B x Ix) as [E|I2]; [exact (NJ E) | exact (TS (in_map _ _ _ I2))].
Qed.

Theorem process_inlines_skips_autolinks tokens j :
  depth_after (firstn (S j) tokens) 0 <> 0 -> content_at (process_inlines quotes tokens) j = content_at tokens j.
Proof.
  intros D. unfold process_inlines. apply sq_tokens_frame; [intros []|]. right; right; right. rewrite Nat.sub_0_r. exact D.
Qed.

Theorem process_inlines_skips_non_text tokens j t :
  nth_error tokens j = Some t -> ttype t <> s_text -> content_at (process_inlines quotes tokens) j = content_at tokens j.
Proof.
  intros N T. unfold content_at. rewrite (erase_keeps _ _ _ _ (process_inlines_shape quotes tokens) N), N; [reflexivity|].
  destruct (str_eqb_spec (ttype t) s_text); [contradiction | reflexivity].
Qed.

End Autolinks.

(* the text of  <http://a.b/"c">  :  link_open(auto), text, link_close(auto) *)
Example autolink_depth :
  forall lo u lc, auto_open lo = true -> auto_close lo = false -> auto_open u = false -> auto_close u = false ->
  depth_after (firstn 2 [lo; u; lc]) 0 <> 0.
Proof. intros lo u lc A B C D. cbn [firstn depth_after]. rewrite A, B, C, D. discriminate. Qed.
