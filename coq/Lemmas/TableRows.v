(* C03: table body rows end on a non-blank line.  Every tr_open token the table rule's row loop pushes carries a one-line map
   [l, l + 1), and l is a non-blank line (the loop stops at the first line whose text is empty once trimmed).  The other tokens
   the loop pushes are not rows (tbody_open, cells, inline, closers).  The header row's map is the rule's own start line,
   non-blank by the line loop (Lemmas/Cover.v). *)
From MD Require Import Base.Py Base.Str Model.Token Model.Utils Model.StateBlock Model.Block Lemmas.StrLemmas
     Lemmas.MapWhole.
From Coq Require Import ZifyBool.

Lemma nonblank_of_line st l raw : TI st -> 0 <= l -> get_line st l = Ok raw -> raw <> [] -> is_empty st l = Ok false.
Proof.
  intros HT Hl G NE. unfold get_line in G. unfold is_empty. unfold line_start in *.
  destruct (tb (b_bMarks st) l) as [b|?|] eqn:EB; cbn [bind] in *; try discriminate G.
  destruct (tb (b_tShift st) l) as [t|?|] eqn:ET; cbn [bind] in *; try discriminate G.
  destruct (tb (b_eMarks st) l) as [e|?|] eqn:EE; cbn [bind] in *; try discriminate G.
  injection G as G. f_equal.
  destruct (HT l b e t Hl EB EE ET) as (B0 & T0 & E0 & _).
  destruct (e <=? b + t) eqn:Q; [|reflexivity].
  exfalso. apply NE. rewrite <- G. apply slice_empty; lia.
Qed.

Lemma strip_nonempty_src p s : strip_by p s <> [] -> s <> [].
Proof. intros H E. apply H. rewrite E. reflexivity. Qed.

Section Rows.
Context (cfg : bcfg).

(* the row loop as the table rule calls it *)
Theorem table_body_rows_nonblank term (T : term_fr term) fuel st aligns sl el r tb' st' :
  TI st -> 0 <= sl ->
  table_rows cfg fuel term st aligns sl (sl + 2) el None = Ok (r, tb', st') ->
  exists seg, b_tokens st' = b_tokens st ++ seg
    /\ Forall (fun t => ttype t = s_tr_open -> exists l, tmap t = Some (l, l + 1) /\ is_empty st l = Ok false) seg.
Proof.
  intros HT S0 H.
  apply (table_rows_first cfg (fun l => 0 <= l -> is_empty st l = Ok false) term T) in H.
  - destruct H as (_ & _ & _ & [[_ E]|(ph & rest & _ & E & NP & F & _)]).
    + exists []. rewrite app_nil_r. split; [exact E | constructor].
    + exists (ph :: rest). split; [exact E|]. constructor; [intros X; contradiction (NP X)|].
      eapply Forall_impl; [|exact F]. intros t (l & B & Ll & R) X. unfold row_tok in R.
      destruct (tmap t) as [m|]; [subst m; exists l; split; [reflexivity | apply Ll; lia] | contradiction (R X)].
  - (* a body row is pushed for a line whose text, trimmed, is not empty *)
    intros s l raw S GL NE Hl. rewrite <- (is_empty_stb st s l S).
    apply (nonblank_of_line s l raw); [apply (stb_TI st); assumption | exact Hl | exact GL|].
    exact (strip_nonempty_src is_py_space raw NE).
Qed.

End Rows.
