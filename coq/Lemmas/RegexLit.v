(* C05: the two regular expressions of validateLink, run by the backtracking matcher of Base/Regex.v on EVERY string,
   compute the direct prefix tests: BAD_PROTO_RE is "starts with vbscript: / javascript: / file: / data:", GOOD_DATA_RE is
   "starts with data:image/(gif|png|jpeg|webp);".  Hence the validator the rule models call (validate_link_re, whose
   regular expressions are regenerated from /repo on every run) IS the direct definition the scheme theorems speak about. *)
From MD Require Import Base.Py Base.Str Base.Regex Model.Url Gen.Regexes Lemmas.StrLemmas.

(* a literal string as the translator writes it: right-nested concatenation of one-character classes *)
Fixpoint lit (c : Z) (p : str) : re :=
  match p with [] => RIn false [CChar c] | d :: p' => RCat (RIn false [CChar c]) (lit d p') end.

Definition eatp (st : mstate) (p rest : str) : mstate := mkM (rev p ++ m_before st) rest (m_pos st + Z.of_nat (length p)) (m_groups st).

Lemma starts_with_split : forall p s, starts_with p s = true -> exists rest, s = p ++ rest.
Proof.
  induction p as [|x p IH]; intros s H; [exists s; reflexivity|]. destruct s as [|y s]; cbn [starts_with] in H; [discriminate|].
  apply Bool.andb_true_iff in H. destruct H as [E H]. apply Z.eqb_eq in E. subst y. destruct (IH s H) as [rest ->]. exists rest. reflexivity.
Qed.

Lemma starts_with_app p rest : starts_with p (p ++ rest) = true.
Proof. induction p as [|x p IH]; [reflexivity|]. cbn [app starts_with]. rewrite Z.eqb_refl, IH. reflexivity. Qed.

Lemma starts_with_cons x p y s : starts_with (x :: p) (y :: s) = (x =? y) && starts_with p s.
Proof. reflexivity. Qed.

Lemma mt_lit : forall p c st k,
  mt (lit c p) st k = if starts_with (c :: p) (m_after st)
                      then k (eatp st (c :: p) (skipn (S (length p)) (m_after st))) else None.
Proof.
  induction p as [|d p IH]; intros c st k; cbn [lit mt].
  - unfold advance. destruct (m_after st) as [|y s] eqn:E; [reflexivity|]. cbn [in_cls existsb in_item xorb orb].
    rewrite Bool.orb_false_r. rewrite starts_with_cons. cbn [starts_with]. rewrite Bool.andb_true_r. rewrite (Z.eqb_sym y c).
    destruct (c =? y) eqn:EQ; [|reflexivity].
    apply Z.eqb_eq in EQ. subst y. unfold eatp. cbn [rev app length skipn]. repeat f_equal.
  - unfold advance. destruct (m_after st) as [|y s] eqn:E; [reflexivity|]. cbn [in_cls existsb in_item xorb orb].
    rewrite Bool.orb_false_r. rewrite starts_with_cons. rewrite (Z.eqb_sym y c). destruct (c =? y) eqn:EQ; cbn [andb]; [|reflexivity].
    apply Z.eqb_eq in EQ. subst y. rewrite IH. cbn [m_after].
    destruct (starts_with (d :: p) s); [|reflexivity]. unfold eatp. cbn [m_before m_pos m_groups rev app length skipn].
    f_equal. f_equal; [rewrite <- !app_assoc; reflexivity | lia].
Qed.

(* a pattern anchored with ^ (no MULTILINE) matches at the start of the string only *)
Lemma match_bol_later r st : m_before st <> [] -> match_at (RCat (RBol false) r) st = None.
Proof. intros H. unfold match_at. cbn [mt]. destruct (m_before st); [contradiction H; reflexivity | reflexivity]. Qed.

Lemma search_from_later r : forall fuel st, m_before st <> [] -> search_from fuel (RCat (RBol false) r) st = None.
Proof.
  induction fuel as [|f IH]; intros st H; cbn [search_from].
  - rewrite match_bol_later by exact H. reflexivity.
  - rewrite match_bol_later by exact H. unfold advance. destruct (m_after st) as [|c rest]; [reflexivity|]. apply IH. cbn [m_before]. discriminate.
Qed.

Lemma test_bol r s : test (RCat (RBol false) r) s = match match_at r (init_state s) with Some _ => true | None => false end.
Proof.
  unfold test, search.
  assert (M0 : match_at (RCat (RBol false) r) (mkM (m_before (init_state s)) (m_after (init_state s)) (m_pos (init_state s)) [])
               = match_at r (init_state s)) by reflexivity.
  destruct s as [|c s]; cbn [length search_from]; rewrite M0.
  - destruct (match_at r (init_state [])); reflexivity.
  - destruct (match_at r (init_state (c :: s))); [reflexivity|].
    unfold advance. cbn [m_after init_state]. rewrite search_from_later by (cbn [m_before]; discriminate). reflexivity.
Qed.

Definition is_some {A} (o : option A) : bool := match o with Some _ => true | None => false end.

Lemma is_some_alt a b st k : is_some (mt (RAlt a b) st k) = is_some (mt a st k) || is_some (mt b st k).
Proof. cbn [mt]. destruct (mt a st k); reflexivity. Qed.

Lemma is_some_lit c p st k :
  is_some (mt (lit c p) st k)
  = starts_with (c :: p) (m_after st) && is_some (k (eatp st (c :: p) (skipn (S (length p)) (m_after st)))).
Proof. rewrite mt_lit. destruct (starts_with (c :: p) (m_after st)); reflexivity. Qed.

Lemma starts_with_pre : forall p w rest, starts_with (p ++ w) (p ++ rest) = starts_with w rest.
Proof. induction p as [|x p IH]; intros w rest; [reflexivity|]. cbn [app]. rewrite starts_with_cons, Z.eqb_refl. cbn [andb]. apply IH. Qed.

Lemma starts_with_app_split : forall a b u, starts_with (a ++ b) u = starts_with a u && starts_with b (skipn (length a) u).
Proof.
  induction a as [|x a IH]; intros b u; [reflexivity|]. destruct u as [|y u]; cbn [app length skipn].
  - reflexivity.
  - rewrite !starts_with_cons, IH. apply Bool.andb_assoc.
Qed.

(* a word, then the continuation "one more literal, then accept" - whatever is done to the groups in between *)
Lemma is_some_word c p d q st (f : mstate -> mstate) :
  (forall st, m_after (f st) = m_after st) ->
  is_some (mt (lit c p) st (fun st' => mt (lit d q) (f st') (fun e => Some e)))
  = starts_with ((c :: p) ++ (d :: q)) (m_after st).
Proof.
  intros F. rewrite !is_some_lit, F. cbn [m_after eatp is_some].
  rewrite Bool.andb_true_r. rewrite starts_with_app_split. reflexivity.
Qed.

Lemma mt_cat a b st k : mt (RCat a b) st k = mt a st (fun st' => mt b st' k).
Proof. reflexivity. Qed.
Lemma mt_group g body st k :
  mt (RGroup g body) st k = mt body st (fun st' => k (mkM (m_before st') (m_after st') (m_pos st') (set_group g (m_pos st) (m_pos st') (m_groups st')))).
Proof. reflexivity. Qed.

Theorem bad_proto_re u : test re_normalize_url_BAD_PROTO_RE u = bad_proto u.
Proof.
  change re_normalize_url_BAD_PROTO_RE with
    (RCat (RBol false) (RCat (RGroup 1%nat (RAlt (lit 118 [98; 115; 99; 114; 105; 112; 116]) (RAlt (lit 106 [97; 118; 97; 115; 99; 114; 105; 112; 116])
                                             (RAlt (lit 102 [105; 108; 101]) (lit 100 [97; 116; 97]))))) (lit 58 []))).
  rewrite test_bol. fold (@is_some mstate (match_at (RCat (RGroup 1%nat (RAlt (lit 118 [98; 115; 99; 114; 105; 112; 116]) (RAlt (lit 106 [97; 118; 97; 115; 99; 114; 105; 112; 116])
                                             (RAlt (lit 102 [105; 108; 101]) (lit 100 [97; 116; 97]))))) (lit 58 [])) (init_state u))).
  unfold match_at. rewrite mt_cat, mt_group, !is_some_alt, !is_some_word by reflexivity. unfold bad_proto. rewrite !Bool.orb_assoc. reflexivity.
Qed.

Theorem good_data_re u : test re_normalize_url_GOOD_DATA_RE u = good_data u.
Proof.
  change re_normalize_url_GOOD_DATA_RE with
    (RCat (RBol false) (RCat (RIn false [CChar 100]) (RCat (RIn false [CChar 97]) (RCat (RIn false [CChar 116]) (RCat (RIn false [CChar 97]) (RCat (RIn false [CChar 58])
       (RCat (RIn false [CChar 105]) (RCat (RIn false [CChar 109]) (RCat (RIn false [CChar 97]) (RCat (RIn false [CChar 103]) (RCat (RIn false [CChar 101]) (RCat (RIn false [CChar 47])
       (RCat (RGroup 1%nat (RAlt (lit 103 [105; 102]) (RAlt (lit 112 [110; 103]) (RAlt (lit 106 [112; 101; 103]) (lit 119 [101; 98; 112]))))) (lit 59 [])))))))))))))).
  rewrite test_bol.
  (* the prefix data:image/ is a literal followed by the rest: reassociate the concatenation *)
  set (tail := RCat (RGroup 1%nat (RAlt (lit 103 [105; 102]) (RAlt (lit 112 [110; 103]) (RAlt (lit 106 [112; 101; 103]) (lit 119 [101; 98; 112]))))) (lit 59 [])).
  assert (PRE : forall st k, mt (RCat (RIn false [CChar 100]) (RCat (RIn false [CChar 97]) (RCat (RIn false [CChar 116]) (RCat (RIn false [CChar 97]) (RCat (RIn false [CChar 58])
       (RCat (RIn false [CChar 105]) (RCat (RIn false [CChar 109]) (RCat (RIn false [CChar 97]) (RCat (RIn false [CChar 103]) (RCat (RIn false [CChar 101]) (RCat (RIn false [CChar 47]) tail))))))))))) st k
       = mt (lit 100 [97; 116; 97; 58; 105; 109; 97; 103; 101; 47]) st (fun st' => mt tail st' k)) by reflexivity.
  unfold match_at. rewrite PRE. rewrite mt_lit. cbn [m_after init_state]. unfold good_data, p_img.
  destruct (starts_with [100; 97; 116; 97; 58; 105; 109; 97; 103; 101; 47] u) eqn:P.
  - destruct (starts_with_split _ _ P) as [rest ->].
    change (S (length [97; 116; 97; 58; 105; 109; 97; 103; 101; 47])) with (length [100; 97; 116; 97; 58; 105; 109; 97; 103; 101; 47]).
    rewrite skipn_app_len. rewrite !starts_with_pre.
    unfold tail. rewrite mt_cat, mt_group.
    match goal with |- (match ?m with _ => _ end) = _ => change (match m with Some _ => true | None => false end) with (is_some m) end.
    rewrite !is_some_alt, !is_some_word by reflexivity. rewrite !Bool.orb_assoc. reflexivity.
  - assert (G : forall q, starts_with ([100; 97; 116; 97; 58; 105; 109; 97; 103; 101; 47] ++ q) u = false) by (intros q; rewrite starts_with_app_split, P; reflexivity).
    rewrite !G. reflexivity.
Qed.

Theorem validate_link_re_eq url : validate_link_re url = validate_link url.
Proof. unfold validate_link_re, validate_link. rewrite bad_proto_re, good_data_re. reflexivity. Qed.
