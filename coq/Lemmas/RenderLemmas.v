(* Renderer theorems.  renderInline and render are one loop ([walk]) over a per-token function ([render_one], and
   [render_top] for top-level tokens, which sends the children of an inline token through the same loop); each theorem
   is a fact about one token, carried over the loop by one lemma ([walk_total], [walked_chunks], [walked_repeat],
   [walked_agree]).  [render_one] is read by the kind of its token ([kind_of], [render_kind]).
   - C15: rendering is repeatable (the only write-back, the image alt, is idempotent)
   - C04: without html tokens and without a highlight callback no raw chunk is
          produced, and every literal chunk is renderer-made markup
   - C18: xhtmlOut / breaks / langPrefix change the output only in their place
   - the renderer on block-level tags (tag_tok), for the one-line documents of C09 / C18 *)
From MD Require Import Base.Py Base.Str Base.Opt Model.Token Model.Utils Model.Render.

Local Arguments str_eqb : simpl never.

(* what renderToken reads of its neighbours *)
Definition core (t : token) : str * str * Z * bool := (ttype t, ttag t, tnesting t, thidden t).
Definition ocore (t : option token) : option (str * str * Z * bool) :=
  match t with Some x => Some (core x) | None => None end.

Lemma render_token_neighbours o p p' t n n' :
  ocore p = ocore p' -> ocore n = ocore n' -> render_token o p t n = render_token o p' t n'.
Proof.
  intros Hp Hn. unfold render_token.
  assert (E1 : match p with Some x => thidden x | None => false end
               = match p' with Some x => thidden x | None => false end).
  { destruct p, p'; simpl in Hp; try discriminate; try reflexivity. unfold core in Hp. congruence. }
  rewrite E1.
  assert (E2 : match n with
               | Some x => if str_eqb (ttype x) s_inline || thidden x then false
                           else if (tnesting x =? -1) && str_eqb (ttag x) (ttag t) then false else true
               | None => true end
             = match n' with
               | Some x => if str_eqb (ttype x) s_inline || thidden x then false
                           else if (tnesting x =? -1) && str_eqb (ttag x) (ttag t) then false else true
               | None => true end).
  { destruct n as [x|], n' as [y|]; simpl in Hn; try discriminate; try reflexivity.
    unfold core in Hn. injection Hn as A B C D. rewrite A, B, C, D. reflexivity. }
  rewrite E2. reflexivity.
Qed.

Lemma aset_idem {V} k (v : V) m : aset k v (aset k v m) = aset k v m.
Proof.
  induction m as [|[k' v'] m IH]; simpl.
  - rewrite str_eqb_refl. reflexivity.
  - destruct (str_eqb k k') eqn:E; simpl.
    + rewrite str_eqb_refl. reflexivity.
    + rewrite E. rewrite IH. reflexivity.
Qed.

Lemma attr_set_idem t k v : attr_set (attr_set t k v) k v = attr_set t k v.
Proof. unfold attr_set, set_attrs. simpl. rewrite aset_idem. reflexivity. Qed.

Lemma core_attr_set t k v : core (attr_set t k v) = core t.
Proof. reflexivity. Qed.

Lemma ocore_hd l l' : map core l = map core l' -> ocore (hd_error l) = ocore (hd_error l').
Proof.
  destruct l as [|a l], l' as [|b l']; cbn [map hd_error ocore]; intros H; try discriminate; [reflexivity|].
  assert (A : core a = core b) by (injection H; intros; unfold core; congruence).
  rewrite A. reflexivity.
Qed.

(* renderInline and render are the same loop: each token goes through [f], which sees the token before
   it as it was left behind and the token after it *)
Section Walk.
Context (f : option token -> token -> option token -> res (list chunk * token)).

Fixpoint walk (prev : option token) (l : list token) : res (list chunk * list token) :=
  match l with
  | [] => Ok ([], [])
  | t :: rest =>
      do (cs, t') <- f prev t (hd_error rest);
      do (cs2, rest') <- walk (Some t') rest;
      Ok (cs ++ cs2, t' :: rest')
  end.

Inductive walked : option token -> list token -> list chunk -> list token -> Prop :=
| walked_nil p : walked p [] [] []
| walked_cons p t rest cs t' cs2 rest' :
    f p t (hd_error rest) = Ok (cs, t') -> walked (Some t') rest cs2 rest' ->
    walked p (t :: rest) (cs ++ cs2) (t' :: rest').

Lemma walk_walked : forall l p cs l', walk p l = Ok (cs, l') -> walked p l cs l'.
Proof.
  induction l as [|t rest IH]; intros p cs l' H; cbn [walk] in H.
  - injection H as <- <-. constructor.
  - destruct (f p t (hd_error rest)) as [[c1 t1]|e|] eqn:R1; cbn [bind] in H; try discriminate.
    destruct (walk (Some t1) rest) as [[c2 r2]|e|] eqn:R2; cbn [bind] in H; try discriminate.
    injection H as <- <-. exact (walked_cons _ _ _ _ _ _ _ R1 (IH _ _ _ R2)).
Qed.

Lemma walked_walk p l cs l' : walked p l cs l' -> walk p l = Ok (cs, l').
Proof. induction 1 as [|p t rest cs t' cs2 rest' R1 _ IH]; cbn [walk]; [reflexivity|]. rewrite R1. cbn [bind]. rewrite IH. reflexivity. Qed.

Lemma walk_total (P : token -> Prop) : (forall p t n, P t -> exists r, f p t n = Ok r) ->
  forall l p, Forall P l -> exists r, walk p l = Ok r.
Proof.
  intros Hf. induction l as [|t rest IH]; intros p H; cbn [walk]; [eexists; reflexivity|].
  inversion H as [|? ? Ht Hr]; subst.
  destruct (Hf p t (hd_error rest) Ht) as [[cs t'] E]. rewrite E. cbn [bind].
  destruct (IH (Some t') Hr) as [[cs2 r2] E2]. rewrite E2. eexists; reflexivity.
Qed.

Lemma walked_chunks (P : token -> Prop) (Q : chunk -> bool) :
  (forall p t n cs t', P t -> f p t n = Ok (cs, t') -> forallb Q cs = true) ->
  forall p l cs l', walked p l cs l' -> Forall P l -> forallb Q cs = true.
Proof.
  intros Hf p l cs l' W. induction W as [|p t rest cs t' cs2 rest' R1 _ IH]; intros H; [reflexivity|].
  inversion H as [|? ? Ht Hr]; subst. rewrite forallb_app, (Hf _ _ _ _ _ Ht R1), (IH Hr). reflexivity.
Qed.

Lemma walked_repeat :
  (forall p p' t n n' cs t', ocore p = ocore p' -> ocore n = ocore n' -> f p t n = Ok (cs, t') ->
     core t' = core t /\ f p' t' n' = Ok (cs, t')) ->
  forall p l cs l', walked p l cs l' -> forall p', ocore p = ocore p' -> map core l' = map core l /\ walked p' l' cs l'.
Proof.
  intros Hf p l cs l' W. induction W as [|p t rest cs t' cs2 rest' R1 _ IH]; intros p' Hp; [split; constructor|].
  destruct (IH (Some t') eq_refl) as [M2 W2].
  destruct (Hf p p' t _ (hd_error rest') cs t' Hp (ocore_hd _ _ (eq_sym M2)) R1) as [C1 Rep1].
  split; [cbn [map]; rewrite C1, M2; reflexivity | exact (walked_cons _ _ _ _ _ _ _ Rep1 W2)].
Qed.

End Walk.

Lemma walked_agree f g (E : chunk -> list chunk) :
  (forall p t n c1 t1 c2 t2, f p t n = Ok (c1, t1) -> g p t n = Ok (c2, t2) -> t1 = t2 /\ flat_map E c1 = flat_map E c2) ->
  forall p l c1 l1, walked f p l c1 l1 -> forall c2 l2, walked g p l c2 l2 -> l1 = l2 /\ flat_map E c1 = flat_map E c2.
Proof.
  intros Hfg p l c1 l1 W. induction W as [|p t rest a1 t1 b1 r1 R1 _ IH]; intros c2 l2 W2; inversion W2 as [|? ? ? a2 t2 b2 r2 R2 W2']; subst.
  - split; reflexivity.
  - destruct (Hfg _ _ _ _ _ _ _ R1 R2) as [-> Ea]. destruct (IH _ _ W2') as [-> Eb].
    split; [reflexivity|]. rewrite !flat_map_app, Ea, Eb. reflexivity.
Qed.

Definition render_top (o : ropts) (prev : option token) (t : token) (next : option token) : res (list chunk * token) :=
  if str_eqb (ttype t) s_inline then
    match tchildren t with
    | Some (x :: ch) => do (cs, ch') <- render_inline_list o None (x :: ch); Ok (cs, set_children t (Some ch'))
    | _ => Ok ([], t)
    end
  else render_one o prev t next.

Lemma render_inline_list_walk o : forall l p, render_inline_list o p l = walk (render_one o) p l.
Proof.
  induction l as [|t rest IH]; intros p; [reflexivity|]. cbn [render_inline_list walk].
  destruct (render_one o p t (hd_error rest)) as [[cs t']|e|]; cbn [bind]; [rewrite IH|..]; reflexivity.
Qed.

Lemma render_list_walk o : forall l p, render_list o p l = walk (render_top o) p l.
Proof.
  induction l as [|t rest IH]; intros p; [reflexivity|]. cbn [render_list walk]. fold (render_top o p t (hd_error rest)).
  destruct (render_top o p t (hd_error rest)) as [[cs t']|e|]; cbn [bind]; [rewrite IH|..]; reflexivity.
Qed.

(* the children that are sent through the loop, and the token with what they left behind: a token without children,
   or with an empty list, is left as it is *)
Definition kids (t : token) : list token := match tchildren t with Some l => l | None => [] end.
Definition put_kids (t : token) (ch : list token) : token := match ch with [] => t | _ => set_children t (Some ch) end.

Lemma render_top_inline o p t n : str_eqb (ttype t) s_inline = true ->
  render_top o p t n = (do (cs, ch') <- walk (render_one o) None (kids t); Ok (cs, put_kids t ch')).
Proof.
  intros EI. unfold render_top, kids. rewrite EI. destruct (tchildren t) as [[|x ch]|]; try reflexivity.
  rewrite render_inline_list_walk. cbn [walk].
  destruct (render_one o None x (hd_error ch)) as [[c1 x1]|e|]; cbn [bind]; try reflexivity.
  destruct (walk (render_one o) (Some x1) ch) as [[c2 ch1]|e|]; reflexivity.
Qed.

Lemma render_top_other o p t n : str_eqb (ttype t) s_inline = false -> render_top o p t n = render_one o p t n.
Proof. intros EI. unfold render_top. rewrite EI. reflexivity. Qed.

(* Which rule a token goes through: the type tests of [render_one] in their order.  text and text_special share a rule,
   html_block and html_inline do; KTag is renderToken, for every type without a rule of its own. *)
Inductive rkind := KCodeInline | KCodeBlock | KFence | KImage | KHardbreak | KSoftbreak | KText | KHtml | KDefinition | KTag.

Definition kind_of (ty : str) : rkind :=
  if str_eqb ty s_code_inline then KCodeInline else if str_eqb ty s_code_block then KCodeBlock
  else if str_eqb ty s_fence then KFence else if str_eqb ty s_image then KImage
  else if str_eqb ty s_hardbreak then KHardbreak else if str_eqb ty s_softbreak then KSoftbreak
  else if str_eqb ty s_text then KText else if str_eqb ty s_tspecial then KText
  else if str_eqb ty s_html_block then KHtml else if str_eqb ty s_html_inline then KHtml
  else if str_eqb ty s_definition then KDefinition else KTag.

Definition ruled (ty : str) : bool := match kind_of ty with KTag => false | _ => true end.

Definition unruled (t : token) : Prop := str_eqb (ttype t) s_inline = false /\ ruled (ttype t) = false.

(* the image token as its rule leaves it: the text of its children as alt *)
Definition with_alt (t : token) : token :=
  attr_set t s_alt (AStr (match tchildren t with Some (x :: l) => inline_as_text_list (x :: l) | _ => [] end)).

Definition render_kind (o : ropts) (prev : option token) (t : token) (next : option token) (k : rkind) : res (list chunk * token) :=
  match k with
  | KCodeInline => Ok ([CLit [60; 99; 111; 100; 101]] ++ render_attrs t ++ [CLit [62]; CEsc (tcontent t); CLit [60; 47; 99; 111; 100; 101; 62]], t)
  | KCodeBlock => Ok ([CLit s_pre] ++ render_attrs t ++ [CLit [62; 60; 99; 111; 100; 101; 62]; CEsc (tcontent t); CLit s_code_pre_end], t)
  | KFence => do cs <- render_fence o t; Ok (cs, t)
  | KImage => Ok (render_token o prev (with_alt t) next, with_alt t)
  | KHardbreak => Ok ([CLit (br o)], t)
  | KSoftbreak => Ok ([CLit (if o_breaks o then br o else [LF])], t)
  | KText => Ok ([CEsc (tcontent t)], t)
  | KHtml => Ok ([CRaw (tcontent t)], t)
  | KDefinition => Ok ([], t)
  | KTag => Ok (render_token o prev t next, t)
  end.

Lemma with_alt_idem t : with_alt (with_alt t) = with_alt t.
Proof. apply attr_set_idem. Qed.

Lemma render_one_kind o p t n : render_one o p t n = render_kind o p t n (kind_of (ttype t)).
Proof. unfold render_one, kind_of. cbv zeta. repeat (destruct (str_eqb (ttype t) _); [reflexivity|]). reflexivity. Qed.

Lemma kind_of_ty ty :
  match kind_of ty with
  | KCodeInline => ty = s_code_inline | KCodeBlock => ty = s_code_block | KFence => ty = s_fence | KImage => ty = s_image
  | KHardbreak => ty = s_hardbreak | KSoftbreak => ty = s_softbreak | KText => ty = s_text \/ ty = s_tspecial
  | KHtml => ty = s_html_block \/ ty = s_html_inline | KDefinition => ty = s_definition
  | KTag => ruled ty = false
  end.
Proof.
  unfold ruled, kind_of.
  repeat match goal with |- context [str_eqb ty ?s] => destruct (str_eqb_spec ty s) as [E|_]; [auto|] end. reflexivity.
Qed.

Lemma render_one_repeat o p p' t n n' cs t' :
  ocore p = ocore p' -> ocore n = ocore n' ->
  render_one o p t n = Ok (cs, t') ->
  core t' = core t /\ render_one o p' t' n' = Ok (cs, t').
Proof.
  intros Hp Hn. rewrite !render_one_kind. destruct (kind_of (ttype t)) eqn:K; cbn [render_kind].
  all: try (intros H; injection H as <- <-; rewrite K; split; reflexivity).
  - destruct (render_fence o t) as [c|e|] eqn:F; cbn [bind]; intros H; try discriminate.
    injection H as <- <-. rewrite K. cbn [render_kind]. rewrite F. split; reflexivity.
  - (* image: the alt written back is the one it would write again *)
    intros H; injection H as <- <-. change (ttype (with_alt t)) with (ttype t). rewrite K. cbn [render_kind].
    rewrite with_alt_idem.
    rewrite (render_token_neighbours o p p' _ n n' Hp Hn). split; reflexivity.
  - intros H; injection H as <- <-. rewrite K. cbn [render_kind].
    rewrite (render_token_neighbours o p p' _ n n' Hp Hn). split; reflexivity.
Qed.

Lemma kids_put t ch : map core ch = map core (kids t) -> kids (put_kids t ch) = ch.
Proof. destruct ch as [|x ch]; [|reflexivity]. cbn [put_kids map]. destruct (kids t); [reflexivity | discriminate]. Qed.

Lemma render_top_repeat o p p' t n n' cs t' :
  ocore p = ocore p' -> ocore n = ocore n' ->
  render_top o p t n = Ok (cs, t') ->
  core t' = core t /\ render_top o p' t' n' = Ok (cs, t').
Proof.
  intros Hp Hn. destruct (str_eqb (ttype t) s_inline) eqn:EI.
  - rewrite render_top_inline by exact EI.
    destruct (walk (render_one o) None (kids t)) as [[c1 ch1]|e|] eqn:R; cbn [bind]; intros H; try discriminate.
    injection H as <- <-.
    destruct (walked_repeat _ (render_one_repeat o) _ _ _ _ (walk_walked _ _ _ _ _ R) None eq_refl) as [M W].
    assert (C : core (put_kids t ch1) = core t) by (destruct ch1; reflexivity). split; [exact C|].
    rewrite render_top_inline by (replace (ttype (put_kids t ch1)) with (ttype t) by (destruct ch1; reflexivity); exact EI).
    rewrite (kids_put _ _ M), (walked_walk _ _ _ _ _ W). cbn [bind]. destruct ch1; reflexivity.
  - rewrite render_top_other by exact EI. intros H.
    destruct (render_one_repeat o p p' t n n' cs t' Hp Hn H) as [C R]. split; [exact C|].
    rewrite render_top_other; [exact R|]. replace (ttype t') with (ttype t) by (unfold core in C; congruence). exact EI.
Qed.

Lemma render_list_repeat o l p p' cs l' :
  ocore p = ocore p' -> render_list o p l = Ok (cs, l') ->
  map core l' = map core l /\ render_list o p' l' = Ok (cs, l').
Proof.
  intros Hp H. rewrite render_list_walk in *.
  destruct (walked_repeat _ (render_top_repeat o) _ _ _ _ (walk_walked _ _ _ _ _ H) p' Hp) as [M W].
  split; [exact M | exact (walked_walk _ _ _ _ _ W)].
Qed.

(* C15: rendering a stream twice gives the same output, and the tokens left behind by
   the first render are a fixed point *)
Theorem render_repeatable o ts h ts' :
  render o ts = Ok (h, ts') -> render o ts' = Ok (h, ts').
Proof.
  unfold render. destruct (render_list o None ts) as [[cs l]|e|] eqn:R; cbn [bind]; intros H; try discriminate.
  injection H as <- <-. rewrite (proj2 (render_list_repeat o ts None None cs l eq_refl R)). reflexivity.
Qed.

(* the strings the rules write themselves, as code points:  ' '  '="'  '"'  ' /'  '>\n'  '>'  '\n'  '<code'  '</code>'
   '<pre'  '><code>'  '</code></pre>\n'  '<pre><code'  '<br />\n'  '<br>\n' *)
Definition fixed_lits : list str :=
  [ [32]; [61; 34]; [34]; [32; 47]; [62; 10]; [62]; [10];
    [60; 99; 111; 100; 101]; [60; 47; 99; 111; 100; 101; 62];
    s_pre; [62; 60; 99; 111; 100; 101; 62]; s_code_pre_end; s_pre_code;
    [60; 98; 114; 32; 47; 62; 10]; [60; 98; 114; 62; 10] ].

(* a literal chunk is renderer-made: one of the fixed strings, or "<" / "</" followed
   by the tag of a token of the stream; data goes through escapeHtml; nothing is raw *)
Definition chunk_ok (tags : list str) (c : chunk) : bool :=
  match c with
  | CEsc _ => true
  | CRaw _ => false
  | CLit s => mem_str s fixed_lits
              || existsb (fun tag => str_eqb s (60 :: tag) || str_eqb s (60 :: 47 :: tag)) tags
  end.

Definition not_html (t : token) : Prop :=
  str_eqb (ttype t) s_html_block = false /\ str_eqb (ttype t) s_html_inline = false.
(* token types whose render rule never writes the tag: text, text_special, definition *)
Definition silent_ty (ty : str) : bool := str_eqb ty s_text || str_eqb ty s_tspecial || str_eqb ty s_definition.
(* a token that goes through a render rule: its tag is in the vocabulary (the empty tag is not in it:
   no "<>" is ever written) or its rule does not use the tag; and it is not raw HTML *)
Definition ok_tok (tags : list str) (t : token) : Prop := (In (ttag t) tags \/ silent_ty (ttype t) = true) /\ not_html t.
(* a top-level token: as above, or of type inline (rendered through its children, its own tag unused) *)
Definition ok_blk (tags : list str) (t : token) : Prop := ok_tok tags t \/ (str_eqb (ttype t) s_inline = true /\ not_html t).
(* children are rendered for tokens of type inline only *)
Definition ok_top (tags : list str) (t : token) : Prop :=
  ok_blk tags t /\ (str_eqb (ttype t) s_inline = true -> forall ch, tchildren t = Some ch -> Forall (ok_tok tags) ch).

Lemma fixed_ok tags s : mem_str s fixed_lits = true -> chunk_ok tags (CLit s) = true.
Proof. intros H. cbn [chunk_ok]. rewrite H. reflexivity. Qed.

Lemma render_attrs_ok tags t : forallb (chunk_ok tags) (render_attrs t) = true.
Proof.
  unfold render_attrs. induction (tattrs t) as [|[k v] l IH]; [reflexivity|].
  cbn [flat_map]. rewrite forallb_app, IH. reflexivity.
Qed.

Lemma tag_lit_ok tags t : In (ttag t) tags ->
  chunk_ok tags (CLit ((if tnesting t =? -1 then [60; 47] else [60]) ++ ttag t)) = true.
Proof.
  intros H. cbn [chunk_ok]. apply Bool.orb_true_iff. right. apply existsb_exists.
  exists (ttag t). split; [exact H|]. destruct (tnesting t =? -1); simpl.
  - rewrite (str_eqb_refl (60 :: 47 :: ttag t)). apply Bool.orb_true_r.
  - rewrite (str_eqb_refl (60 :: ttag t)). reflexivity.
Qed.

Lemma render_token_ok tags o p t n : In (ttag t) tags -> forallb (chunk_ok tags) (render_token o p t n) = true.
Proof.
  intros H. unfold render_token. destruct (thidden t); [reflexivity|].
  rewrite !forallb_app. rewrite render_attrs_ok. cbn [forallb]. rewrite (tag_lit_ok tags t H).
  repeat match goal with |- context [if ?b then _ else _] => destruct b end; reflexivity.
Qed.

Lemma render_fence_ok tags o t cs :
  o_highlight o = None -> render_fence o t = Ok cs -> forallb (chunk_ok tags) cs = true.
Proof.
  intros Hh. unfold render_fence, render_fence_with, render_fence_core, fence_highlighted. rewrite Hh.
  generalize (fence_info t) as info. intros info. cbn iota.
  destruct info as [|i0 info].
  - intros H. injection H as <-. cbn [app forallb]. rewrite forallb_app, render_attrs_ok. reflexivity.
  - destruct (attr_join _ s_class _) as [tmp|e|]; cbn [bind]; intros H; try discriminate.
    injection H as <-. cbn [app forallb]. rewrite forallb_app, render_attrs_ok. reflexivity.
Qed.

Lemma ruled_silent ty : ruled ty = false -> silent_ty ty = false.
Proof.
  intros H. unfold silent_ty.
  destruct (str_eqb_spec ty s_text) as [->|_]; [discriminate H|].
  destruct (str_eqb_spec ty s_tspecial) as [->|_]; [discriminate H|].
  destruct (str_eqb_spec ty s_definition) as [->|_]; [discriminate H | reflexivity].
Qed.

Lemma render_one_ok tags o p t n cs t' :
  o_highlight o = None -> ok_tok tags t ->
  render_one o p t n = Ok (cs, t') -> forallb (chunk_ok tags) cs = true.
Proof.
  intros Hh [Htag [Hb Hi]]. rewrite render_one_kind.
  assert (TG : silent_ty (ttype t) = false -> In (ttag t) tags).
  { intros S0. destruct Htag as [I|S1]; [exact I | rewrite S0 in S1; discriminate S1]. }
  pose proof (kind_of_ty (ttype t)) as K. destruct (kind_of (ttype t)); cbn [render_kind].
  (* code_inline, code_block, hardbreak, softbreak, text, definition: fixed literals, attributes, escaped data *)
  all: try (intros H; injection H as <- <-; cbn [app forallb]; rewrite ?forallb_app, ?render_attrs_ok; unfold br;
            destruct (o_breaks o), (o_xhtml o); reflexivity).
  - destruct (render_fence o t) as [c|e|] eqn:F; cbn [bind]; intros H; try discriminate.
    injection H as <- <-. eapply render_fence_ok; eassumption.
  - (* image writes its tag: it is in the vocabulary, image not being a silent type *)
    intros H; injection H as <- <-. apply render_token_ok. apply TG. rewrite K. reflexivity.
  - (* raw html is what not_html excludes *)
    exfalso. destruct K as [K|K]; rewrite K in *; discriminate.
  - (* renderToken writes the tag, as for image *)
    intros H; injection H as <- <-. apply render_token_ok, TG, ruled_silent, K.
Qed.

Lemma render_inline_list_ok tags o l p cs l' :
  o_highlight o = None -> Forall (ok_tok tags) l ->
  render_inline_list o p l = Ok (cs, l') -> forallb (chunk_ok tags) cs = true.
Proof.
  intros Hh Hf H. rewrite render_inline_list_walk in H.
  exact (walked_chunks _ _ _ (fun p t n cs t' => render_one_ok tags o p t n cs t' Hh) _ _ _ _ (walk_walked _ _ _ _ _ H) Hf).
Qed.

Lemma render_top_ok tags o p t n cs t' :
  o_highlight o = None -> ok_top tags t ->
  render_top o p t n = Ok (cs, t') -> forallb (chunk_ok tags) cs = true.
Proof.
  intros Hh [Ht Hch]. destruct (str_eqb (ttype t) s_inline) eqn:EI.
  - rewrite render_top_inline by exact EI.
    destruct (walk (render_one o) None (kids t)) as [[c1 ch1]|e|] eqn:R; cbn [bind]; intros H; try discriminate.
    injection H as <- <-. rewrite <- render_inline_list_walk in R. eapply render_inline_list_ok; [exact Hh | | exact R].
    unfold kids. destruct (tchildren t) as [ch|] eqn:C; [exact (Hch eq_refl ch eq_refl) | constructor].
  - rewrite render_top_other by exact EI.
    destruct Ht as [Ht|[Ht _]]; [|rewrite EI in Ht; discriminate Ht]. exact (render_one_ok tags o p t n cs t' Hh Ht).
Qed.

Theorem render_list_ok tags o l p cs l' :
  o_highlight o = None -> Forall (ok_top tags) l ->
  render_list o p l = Ok (cs, l') -> forallb (chunk_ok tags) cs = true.
Proof.
  intros Hh Hf H. rewrite render_list_walk in H.
  exact (walked_chunks _ _ _ (fun p t n cs t' => render_top_ok tags o p t n cs t' Hh) _ _ _ _ (walk_walked _ _ _ _ _ H) Hf).
Qed.

(* consequence for the characters of the output: a chunk that passes [chunk_ok] renders
   to a fixed literal, a tag opener, or escaped data *)
Theorem chunk_html_shape tags c :
  chunk_ok tags c = true ->
  (exists s, c = CEsc s /\ chunk_html c = escape_html s)
  \/ (exists s, c = CLit s /\ chunk_html c = s /\
        (In s fixed_lits \/ exists tag, In tag tags /\ (s = 60 :: tag \/ s = 60 :: 47 :: tag))).
Proof.
  destruct c as [s|s|s]; cbn [chunk_ok]; intros H; try discriminate.
  - right. exists s. split; [reflexivity|]. split; [reflexivity|].
    apply Bool.orb_true_iff in H. destruct H as [H|H].
    + left. apply mem_str_In. exact H.
    + right. apply existsb_exists in H. destruct H as [tag [Hin Ht]]. exists tag. split; [exact Hin|].
      apply Bool.orb_true_iff in Ht. destruct Ht as [Ht|Ht]; apply str_eqb_eq in Ht; auto.
  - left. exists s. split; reflexivity.
Qed.

Definition with_xhtml (o : ropts) (b : bool) : ropts := mkROpts b (o_breaks o) (o_langPrefix o) (o_highlight o).
Definition with_breaks (o : ropts) (b : bool) : ropts := mkROpts (o_xhtml o) b (o_langPrefix o) (o_highlight o).

(* erase exactly the two spellings xhtmlOut controls: the " /" of a void tag and <br /> vs <br> *)
Definition erase_void (c : chunk) : list chunk :=
  match c with
  | CLit s => if str_eqb s [32; 47] then []
              else if str_eqb s [60; 98; 114; 32; 47; 62; 10] then [CLit [60; 98; 114; 62; 10]]
              else [c]
  | _ => [c]
  end.

Lemma erase_void_attrs t : flat_map erase_void (render_attrs t) = render_attrs t.
Proof.
  unfold render_attrs. induction (tattrs t) as [|[k v] l IH]; [reflexivity|].
  cbn [flat_map]. rewrite !flat_map_app. rewrite IH. reflexivity.
Qed.

Lemma render_token_xhtml o p t n :
  flat_map erase_void (render_token (with_xhtml o true) p t n)
  = flat_map erase_void (render_token (with_xhtml o false) p t n).
Proof.
  unfold render_token. destruct (thidden t); [reflexivity|].
  cbn [o_xhtml with_xhtml]. rewrite !flat_map_app. f_equal. f_equal. f_equal.
  rewrite Bool.andb_true_r, Bool.andb_false_r. destruct (tnesting t =? 0); reflexivity.
Qed.

Lemma render_one_xhtml o p t n c1 t1 c2 t2 :
  render_one (with_xhtml o true) p t n = Ok (c1, t1) ->
  render_one (with_xhtml o false) p t n = Ok (c2, t2) ->
  t1 = t2 /\ flat_map erase_void c1 = flat_map erase_void c2.
Proof.
  rewrite !render_one_kind. destruct (kind_of (ttype t)); cbn [render_kind].
  all: try (intros A B; injection A as <- <-; injection B as <- <-; split; reflexivity).
  - change (render_fence (with_xhtml o true) t) with (render_fence (with_xhtml o false) t).
    destruct (render_fence (with_xhtml o false) t); cbn [bind]; intros A B; try discriminate.
    injection A as <- <-; injection B as <- <-. split; reflexivity.
  - intros A B; injection A as <- <-; injection B as <- <-. split; [reflexivity | apply render_token_xhtml].
  - intros A B; injection A as <- <-; injection B as <- <-. split; [reflexivity|]. cbn [o_breaks with_xhtml]. destruct (o_breaks o); reflexivity.
  - intros A B; injection A as <- <-; injection B as <- <-. split; [reflexivity | apply render_token_xhtml].
Qed.

Lemma render_top_xhtml o p t n c1 t1 c2 t2 :
  render_top (with_xhtml o true) p t n = Ok (c1, t1) ->
  render_top (with_xhtml o false) p t n = Ok (c2, t2) ->
  t1 = t2 /\ flat_map erase_void c1 = flat_map erase_void c2.
Proof.
  destruct (str_eqb (ttype t) s_inline) eqn:EI.
  - rewrite !render_top_inline by exact EI.
    destruct (walk (render_one (with_xhtml o true)) None (kids t)) as [[a1 k1]|e|] eqn:R1; cbn [bind]; intros A; try discriminate.
    destruct (walk (render_one (with_xhtml o false)) None (kids t)) as [[a2 k2]|e|] eqn:R2; cbn [bind]; intros B; try discriminate.
    injection A as <- <-; injection B as <- <-.
    destruct (walked_agree _ _ erase_void (render_one_xhtml o) _ _ _ _ (walk_walked _ _ _ _ _ R1) _ _ (walk_walked _ _ _ _ _ R2)) as [-> E].
    split; [reflexivity | exact E].
  - rewrite !render_top_other by exact EI. apply render_one_xhtml.
Qed.

Theorem render_list_xhtml o l p c1 l1 c2 l2 :
  render_list (with_xhtml o true) p l = Ok (c1, l1) ->
  render_list (with_xhtml o false) p l = Ok (c2, l2) ->
  l1 = l2 /\ flat_map erase_void c1 = flat_map erase_void c2.
Proof.
  rewrite !render_list_walk. intros A B.
  exact (walked_agree _ _ erase_void (render_top_xhtml o) _ _ _ _ (walk_walked _ _ _ _ _ A) _ _ (walk_walked _ _ _ _ _ B)).
Qed.

(* breaks, langPrefix and highlight are read by no rule other than softbreak / fence:
   on a token that is neither, the result does not depend on them at all *)
Theorem render_one_option_frame o o' p t n :
  o_xhtml o = o_xhtml o' ->
  str_eqb (ttype t) s_softbreak = false -> str_eqb (ttype t) s_fence = false ->
  render_one o p t n = render_one o' p t n.
Proof.
  intros Hx Hs Hf. unfold render_one. rewrite Hs, Hf. unfold render_token, br. rewrite Hx. reflexivity.
Qed.

Lemma breaks_on_softbreak o p t n :
  render_one (with_breaks o true) p t n =
  if str_eqb (ttype t) s_softbreak then Ok ([CLit (br o)], t) else render_one (with_breaks o false) p t n.
Proof.
  destruct (str_eqb (ttype t) s_softbreak) eqn:E.
  - apply str_eqb_eq in E. unfold render_one. rewrite E. reflexivity.
  - unfold render_one. rewrite E. reflexivity.
Qed.

(* breaks_on_softbreak with the guard written out as the position of the softbreak rule among the type tests (the five
   other tests are implied: the type names are different strings) *)
Theorem render_one_breaks o p t n :
  render_one (with_breaks o true) p t n =
  if str_eqb (ttype t) s_softbreak && negb (str_eqb (ttype t) s_code_inline || str_eqb (ttype t) s_code_block
       || str_eqb (ttype t) s_fence || str_eqb (ttype t) s_image || str_eqb (ttype t) s_hardbreak)
  then Ok ([CLit (br o)], t)
  else render_one (with_breaks o false) p t n.
Proof.
  rewrite breaks_on_softbreak. destruct (str_eqb_spec (ttype t) s_softbreak) as [E|_]; [rewrite E|]; reflexivity.
Qed.

(* langPrefix: only the escaped class value of a fence with an info string can differ *)
Definition same_but_data (a b : chunk) : Prop := a = b \/ exists x y, a = CEsc x /\ b = CEsc y.

Lemma sbd_refl c : same_but_data c c. Proof. left; reflexivity. Qed.
Lemma sbd_esc x y : same_but_data (CEsc x) (CEsc y). Proof. right; eauto. Qed.
Lemma sbd_list l : Forall2 same_but_data l l.
Proof. induction l; constructor; [apply sbd_refl | assumption]. Qed.

(* two chunk lists written out, equal up to the data of escaped chunks *)
Local Ltac sbd_chunks := repeat (first [apply Forall2_nil | apply Forall2_cons; [first [apply sbd_refl | apply sbd_esc]|]]).

Lemma attrs_class_sbd v1 v2 t :
  Forall2 same_but_data (render_attrs (attr_set t s_class (AStr v1))) (render_attrs (attr_set t s_class (AStr v2))).
Proof.
  unfold render_attrs, attr_set, set_attrs. cbn [tattrs]. induction (tattrs t) as [|[k v] l IH]; cbn [aset flat_map].
  - cbn [app fst snd str_of_aval]. sbd_chunks.
  - destruct (str_eqb s_class k); cbn [flat_map app fst snd str_of_aval].
    + sbd_chunks. apply sbd_list.
    + sbd_chunks. exact IH.
Qed.

Theorem render_fence_langPrefix lp1 lp2 t info hl c1 c2 :
  render_fence_core lp1 t info hl = Ok c1 ->
  render_fence_core lp2 t info hl = Ok c2 ->
  Forall2 same_but_data c1 c2.
Proof.
  unfold render_fence_core.
  destruct (match hl with [CRaw h] => starts_with s_pre h | _ => false end).
  { intros A B. injection A as <-. injection B as <-. apply sbd_list. }
  destruct info as [|i0 info].
  { intros A B. injection A as <-. injection B as <-. apply sbd_list. }
  unfold attr_join. cbn [tattrs set_attrs new_token].
  destruct (alookup s_class (tattrs t)) as [[cur|z]|]; cbn [bind]; intros A B; try discriminate;
    injection A as <-; injection B as <-; cbn [app]; apply Forall2_cons; try apply sbd_refl;
    (apply Forall2_app; [apply attrs_class_sbd | apply sbd_list]).
Qed.

(* A token whose type has no render rule of its own goes through renderToken; for a visible
   block-level tag that is "<tag attrs>" or "</tag>" and a line feed that depends on the next token. *)

Record tag_tok (t : token) (nesting : Z) (tag attrs : str) : Prop := {
  tt_plain : unruled t;
  tt_visible : thidden t = false;
  tt_block : tblock t = true;
  tt_nesting : tnesting t = nesting;
  tt_tag : ttag t = tag;
  tt_attrs : html_of (render_attrs t) = attrs
}.

Definition prev_hidden (prev : option token) : bool := match prev with Some p => thidden p | None => false end.

Lemma html_of_app a b : html_of (a ++ b) = html_of a ++ html_of b.
Proof. apply flat_map_app. Qed.

Lemma render_one_default o prev t next : ruled (ttype t) = false -> render_one o prev t next = Ok (render_token o prev t next, t).
Proof. rewrite render_one_kind. unfold ruled. destruct (kind_of (ttype t)); (discriminate || reflexivity). Qed.

Lemma render_list_plain o prev t rest : unruled t ->
  render_list o prev (t :: rest)
  = (do (cs2, rest') <- render_list o (Some t) rest; Ok (render_token o prev t (hd_error rest) ++ cs2, t :: rest')).
Proof. intros [A B]. cbn [render_list]. rewrite A, (render_one_default _ _ _ _ B). reflexivity. Qed.

Lemma render_list_inline o prev t0 ch cch ch' rest :
  str_eqb (ttype t0) s_inline = true -> render_inline_list o None ch = Ok (cch, ch') ->
  render_list o prev (set_children t0 (Some ch) :: rest)
  = (do (cs2, rest') <- render_list o (Some (set_children t0 (Some ch'))) rest;
     Ok (cch ++ cs2, set_children t0 (Some ch') :: rest')).
Proof.
  intros A H. cbn [render_list ttype tchildren set_children]. rewrite A.
  destruct ch as [|x ch].
  - injection H as <- <-. reflexivity.
  - rewrite H. reflexivity.
Qed.

Lemma render_token_hidden o prev t next : thidden t = true -> render_token o prev t next = [].
Proof. intros H. unfold render_token. rewrite H. reflexivity. Qed.

Section Tag.
Context (t : token) (tag attrs : str).

Lemma html_close_tag : tag_tok t (-1) tag attrs -> forall o prev next,
  html_of (render_token o prev t next) = [60; 47] ++ tag ++ attrs ++ [62; 10].
Proof.
  intros [_ V B N T A] o prev next. unfold render_token. rewrite V, B, N, T.
  change (-1 =? -1) with true. change (-1 =? 0) with false. change (-1 =? 1) with false. cbn [andb negb]. cbv iota.
  rewrite !html_of_app, A. unfold LF. cbn [html_of flat_map chunk_html app]. rewrite ?app_nil_r, <- ?app_assoc. reflexivity.
Qed.

(* after an opening tag: no line feed before an inline or hidden token, one before another opening tag *)
Lemma html_open_tag_glued : tag_tok t 1 tag attrs -> forall o prev n, prev_hidden prev = false ->
  str_eqb (ttype n) s_inline || thidden n = true ->
  html_of (render_token o prev t (Some n)) = [60] ++ tag ++ attrs ++ [62].
Proof.
  intros [_ V B N T A] o prev n P G. unfold render_token. fold (prev_hidden prev). rewrite V, B, N, T, P, G.
  change (1 =? -1) with false. change (1 =? 0) with false. change (1 =? 1) with true. cbn [andb negb]. cbv iota.
  rewrite !html_of_app, A. cbn [html_of flat_map chunk_html app]. rewrite ?app_nil_r, <- ?app_assoc. reflexivity.
Qed.

Lemma html_open_tag_lf : tag_tok t 1 tag attrs -> forall o prev n, prev_hidden prev = false ->
  str_eqb (ttype n) s_inline = false -> thidden n = false -> tnesting n = 1 ->
  html_of (render_token o prev t (Some n)) = [60] ++ tag ++ attrs ++ [62; 10].
Proof.
  intros [_ V B N T A] o prev n P G1 G2 G3. unfold render_token. fold (prev_hidden prev). rewrite V, B, N, T, P, G1, G2, G3.
  change (1 =? -1) with false. change (1 =? 0) with false. change (1 =? 1) with true. cbn [andb negb orb]. cbv iota.
  rewrite !html_of_app, A. unfold LF. cbn [html_of flat_map chunk_html app]. rewrite ?app_nil_r, <- ?app_assoc. reflexivity.
Qed.

End Tag.

Arguments html_close_tag {t tag attrs} _ o prev next.
Arguments html_open_tag_glued {t tag attrs} _ o prev n _ _.
Arguments html_open_tag_lf {t tag attrs} _ o prev n _ _ _ _.
