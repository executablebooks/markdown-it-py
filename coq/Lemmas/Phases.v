(* Long bodies of Model/Block.v - the list rule, a round of its item loop, a round of the line loop, the reference
   rule, the table rule - written a second time as a sequence of phases, cut where the body itself changes what it is
   doing (for an item: the reads and the two table writes that open it, its body, the reads and writes that close it,
   the look at the next line).
   A phase that reads is a function into [res] that returns the VALUES read; what a body computes without reading is a
   plain function ([ref_parse]: a reference definition read out of a string); the states between the phases are plain
   terms over those values, so that what a phase leaves untouched is still seen by conversion.  One equation per body
   ([list_items_S], [r_list_eq], [tok_loop_round], [r_reference_eq], [r_table_eq]) says that the body is its phases in
   sequence; it holds by associativity of [bind].  Every invariant of the block rules (effect, maps, no exception, fuel,
   the runs on one concrete line) is proved phase by phase, in goals that hold neither the rest of the body nor an
   induction hypothesis, and composed through the equation, which serves a hypothesis [body = Ok r] and a goal about
   [body] alike. *)
From RecordUpdate Require Import RecordUpdate.
From MD Require Import Base.Py Base.Str Model.Token Model.Utils Model.StateBlock Model.Helpers Model.Url
     Model.Render Model.Block.

Lemma bind_assoc_r {A B C} (m : res A) (f : A -> res B) (g : B -> res C) (k : A -> res C) :
  (forall x, k x = bind (f x) g) -> bind m k = bind (bind m f) g.
Proof. intros H. rewrite bind_assoc. apply bind_cong, H. Qed.

(* [model body = body in phases]: the binds of the two sides are matched one by one - those inside a phase through
   associativity, a callback or a phase that the model has as a sub-term through congruence -, a test or a pair is
   split on both sides at once, the lets of the model become local definitions (expanded, the states make every step
   walk a goal many times the size); what is left at an exit is convertible *)
Ltac phases :=
  repeat (lazymatch goal with
          | |- (let x := ?v in @?k x) = ?r => let y := fresh x in pose (y := v); change (k y = r)
          | |- _ = bind (Ok _) _ => cbn [bind]
          | |- bind ?m ?k = bind (bind _ _) _ => apply bind_assoc_r; intros ?
          | |- bind ?m ?k = bind ?m' ?k' => change (bind m' k = bind m' k'); apply bind_cong; intros ?
          | |- (if ?c then _ else _) = bind (if ?c' then _ else _) _ => change c' with c; case c; cbn [bind]
          | |- context [let '(_, _) := ?p in _] => destruct p
          | |- match ?o with Some _ => _ | None => _ end = _ => destruct o
          | |- (if ?c then _ else _) = _ => case c
          | |- _ => reflexivity
          end; cbv beta).

Section Bodies.
Context (cfg : bcfg).

(* whether only blanks follow the marker that ends at [pam] on line [nl], the indent of the item, the entries of
   row [sl] as they were, and that row's tShift and sCount rewritten for the item *)
Definition item_reads (st : bstate) (sl nl pam : Z) : res (bool * Z * Z * Z * list Z * list Z) :=
  do maximum <- tb (b_eMarks st) nl;
  do scn <- tb (b_sCount st) nl;
  do ls <- line_start st sl;
  do bsn <- tb (b_bsCount st) nl;
  let initial := scn + pam - ls in
  do (contentStart, offset) <- list_blanks (S (length (b_src st))) (b_src st) pam maximum initial bsn;
  let iam0 := if maximum <=? contentStart then 1 else offset - initial in
  do oldTShift <- tb (b_tShift st) sl;
  do oldSCount <- tb (b_sCount st) sl;
  do bms <- tb (b_bMarks st) sl;
  do ts' <- tb_set (b_tShift st) sl (contentStart - bms);
  do sc' <- tb_set (b_sCount st) sl offset;
  Ok (maximum <=? contentStart, initial + (if 4 <? iam0 then 1 else iam0), oldTShift, oldSCount, ts', sc').

Definition item_st1 (st : bstate) (isOrd : bool) (mc sl start pam : Z) : bstate :=
  bpush st s_list_item_open s_li 1
        (fun t => (if isOrd then (fun x => set_info x (slice (b_src st) start (pam - 1))) else (fun x => x))
                    (map_tok sl 0 (set_markup t [mc]))).

Definition item_st2 (st : bstate) (isOrd : bool) (mc sl start pam indent : Z) (ts' sc' : list Z) : bstate :=
  item_st1 st isOrd mc sl start pam
    <| b_listIndent := b_blkIndent st |> <| b_blkIndent := indent |> <| b_tight := true |>
    <| b_tShift := ts' |> <| b_sCount := sc' |>.

Definition item_body (rec : rec_t) (st2 : bstate) (sl el : Z) (blank : bool) : res bstate :=
  do e <- (if blank then is_empty st2 (sl + 1) else Ok false);
  if e then Ok (st_line st2 (Z.min (b_line st2 + 2) el)) else rec st2 sl el.

Definition item_back (st3 : bstate) (sl ots osc : Z) : res (bool * list Z * list Z) :=
  do pee <- (if 1 <? b_line st3 - sl then is_empty st3 (b_line st3 - 1) else Ok false);
  do ts'' <- tb_set (b_tShift st3) sl ots;
  do sc'' <- tb_set (b_sCount st3) sl osc;
  Ok (pee, ts'', sc'').

Definition item_st6 (st st3 : bstate) (mc sl : Z) (ts'' sc'' : list Z) : bstate :=
  let st5 := bpush (st3 <| b_blkIndent := b_listIndent st3 |> <| b_listIndent := b_listIndent st |>
                        <| b_tShift := ts'' |> <| b_sCount := sc'' |> <| b_tight := b_tight st |>)
                   s_list_item_close s_li (-1) (fun t => set_markup t [mc]) in
  st5 <| b_tokens := set_map_at (b_tokens st5) (length (b_tokens st)) (fun _ => Some (sl, b_line st5)) |>.

(* the line after the item: [Some (pam, start)] if it opens another item of the same list.  The line is an argument:
   [b_line st6] inside would have the equation compare two item states field by field before reducing either *)
Definition item_next (term : term_t) (st6 : bstate) (isOrd : bool) (mc nl el start : Z) : res (option (Z * Z) * bstate) :=
  if el <=? nl then Ok (None, st6)
  else
    do scn <- tb (b_sCount st6) nl;
    if scn <? b_blkIndent st6 then Ok (None, st6)
    else
      do cb <- code_block_at cfg st6 nl;
      if cb then Ok (None, st6)
      else
        do (t, st7) <- term nm_list st6 nl el;
        if t then Ok (None, st7)
        else
          do pam <- (if isOrd then skip_ordered st7 nl else skip_bullet st7 nl);
          if pam <? 0 then Ok (None, st7)
          else
            do start' <- (if isOrd then line_start st7 nl else Ok start);
            do c <- py_idx (b_src st7) (pam - 1);
            Ok (if negb (c =? mc) then None else Some (pam, start'), st7).

(* [tight'] is computed with the INCOMING [pee] and the next round gets [pee']: prevEmptyEnd of list.py is tested before
   it is set for this item *)
Lemma list_items_S f rec term st isOrd mc sl nl el pam start tight pee :
  list_items cfg (S f) rec term st isOrd mc sl nl el pam start tight pee =
  if negb (nl <? el) then Ok (nl, tight, st)
  else
    do (blank, indent, ots, osc, ts', sc') <- item_reads st sl nl pam;
    do st3 <- item_body rec (item_st2 st isOrd mc sl start pam indent ts' sc') sl el blank;
    do (pee', ts'', sc'') <- item_back st3 sl ots osc;
    let nl' := b_line st3 in
    do (nx, st7) <- item_next term (item_st6 st st3 mc sl ts'' sc'') isOrd mc nl' el start;
    let tight' := if negb (b_tight st3) || pee then false else tight in
    match nx with
    | None => Ok (nl', tight', st7)
    | Some (pam', start') => list_items cfg f rec term st7 isOrd mc nl' nl' el pam' start' tight' pee'
    end.
Proof.
  (* the phases are unfolded, with their lets, before the model's body appears; that keeps its lets *)
  cbv beta zeta delta [item_reads item_back item_next].
  cbn beta iota delta [list_items]. destruct (negb (nl <? el)); [reflexivity|].
  phases.
Qed.

(* the list rule around the item loop: the tests that find a marker on line [sl] - [Some (isOrd, pam, value, char, start)]
   when a list begins there -, the state with the list's opening token, and the state the rule ends in *)
Definition list_head (st : bstate) (sl : Z) (silent : bool) : res (option (bool * Z * Z * Z * Z)) :=
  do cb <- code_block_at cfg st sl;
  if cb then Ok None
  else
    do sc <- tb (b_sCount st) sl;
    if (0 <=? b_listIndent st) && (4 <=? sc - b_listIndent st) && (sc <? b_blkIndent st) then Ok None
    else
      let isTerm := silent && str_eqb (b_parentType st) nm_paragraph && (b_blkIndent st <=? sc) in
      do pamo <- skip_ordered st sl;
      do start <- line_start st sl;
      do sel <-
        (if 0 <=? pamo then
           let mv := int_of_digits (slice (b_src st) start (pamo - 1)) in
           if isTerm && negb (mv =? 1) then Ok None else Ok (Some (true, pamo, mv))
         else
           do pamb <- skip_bullet st sl;
           if 0 <=? pamb then Ok (Some (false, pamb, 0)) else Ok None);
      match sel with
      | None => Ok None
      | Some (isOrd, pam, mv) =>
          do em <- tb (b_eMarks st) sl;
          if isTerm && (em <=? skip_spaces (b_src st) pam) then Ok None
          else do mc <- py_idx (b_src st) (pam - 1); Ok (Some (isOrd, pam, mv, mc, start))
      end.

(* the code points are "ordered_list_open" "ol" / "bullet_list_open" "ul", and the _close ones in list_st5 *)
Definition list_st1 (st : bstate) (isOrd : bool) (mc mv sl : Z) : bstate :=
    (if isOrd then
       bpush st [111; 114; 100; 101; 114; 101; 100; 95; 108; 105; 115; 116; 95; 111; 112; 101; 110] [111; 108] 1
             (fun t => map_tok sl 0 (set_markup (if negb (mv =? 1) then set_attrs t [(s_start, AInt mv)] else t) [mc]))
     else
       bpush st [98; 117; 108; 108; 101; 116; 95; 108; 105; 115; 116; 95; 111; 112; 101; 110] [117; 108] 1
             (fun t => map_tok sl 0 (set_markup t [mc]))).

(* the list closed: closing token, map of the opening token, cursor, parentType; then the paragraphs of a tight list
   hidden.  [parent] is what the rule saved, b_parentType of [list_st1 ..]: of a state under [if isOrd] it does not reduce *)
Definition list_st5 (st st3 : bstate) (isOrd : bool) (mc sl nl : Z) (parent : str) : bstate :=
  let st4 :=
    if isOrd then
      bpush st3 [111; 114; 100; 101; 114; 101; 100; 95; 108; 105; 115; 116; 95; 99; 108; 111; 115; 101] [111; 108] (-1)
            (fun t => set_markup t [mc])
    else
      bpush st3 [98; 117; 108; 108; 101; 116; 95; 108; 105; 115; 116; 95; 99; 108; 111; 115; 101] [117; 108] (-1)
            (fun t => set_markup t [mc]) in
  st_parent (st_line (st4 <| b_tokens := set_map_at (b_tokens st4) (length (b_tokens st)) (fun _ => Some (sl, nl)) |>) nl)
            parent.

Definition list_st6 (st st5 : bstate) (tight : bool) : bstate :=
  if tight
  then st5 <| b_tokens := mark_tight (S (length (b_tokens st5))) (b_tokens st5) (Z.of_nat (length (b_tokens st)) + 2)
                                     (len (b_tokens st5) - 2) (b_level st5 + 2) |>
  else st5.

Lemma r_list_eq rec term st sl el silent :
  r_list cfg rec term st sl el silent =
  do h <- list_head st sl silent;
  match h with
  | None => Ok (false, st)
  | Some (isOrd, pam, mv, mc, start) =>
      if silent then Ok (true, st)
      else
        do (nl, tight, st3) <- list_items cfg (S (Z.to_nat (el - sl))) rec term (st_parent (list_st1 st isOrd mc mv sl) nm_list) isOrd mc sl sl el pam start true false;
        Ok (true, list_st6 st (list_st5 st st3 isOrd mc sl nl (b_parentType (list_st1 st isOrd mc mv sl))) tight)
  end.
Proof.
  cbv beta zeta delta [list_head]. cbv beta delta [r_list]. phases.
Qed.

Lemma list_st1_push st isOrd mc mv sl : exists ty tag f, list_st1 st isOrd mc mv sl = bpush st ty tag 1 f.
Proof. unfold list_st1. destruct isOrd; eexists _, _, _; reflexivity. Qed.
Lemma list_st5_push st st3 isOrd mc sl nl parent : exists ty tag f, (forall t, tmap (f t) = tmap t) /\
  list_st5 st st3 isOrd mc sl nl parent
  = st_parent (st_line (bpush st3 ty tag (-1) f <| b_tokens := set_map_at (b_tokens (bpush st3 ty tag (-1) f)) (length (b_tokens st)) (fun _ => Some (sl, nl)) |>) nl) parent.
Proof. unfold list_st5. destruct isOrd; eexists _, _, _; (split; [|reflexivity]); reflexivity. Qed.

(* The line loop of ParserBlock.tokenize.  [tok_head] skips the blank lines and answers the line on which the rules are
   tried, or [(l, false)] where the loop ends in [st_line st l] without trying; [tok_next] looks at the line on which a
   rule has left the cursor: where the loop goes on (one line further behind a blank line) and hasEmptyLines. *)
Definition tok_head (st : bstate) (line el : Z) : res (Z * bool) :=
  let line1 := skip_empty_lines (S (Z.to_nat (b_lineMax st))) st line in
  if el <=? line1 then Ok (line1, false)
  else
    do sc <- tb (b_sCount st) line1;
    if sc <? b_blkIndent st then Ok (line1, false)
    else if c_maxNesting cfg <=? b_level st then Ok (el, false) else Ok (line1, true).

Definition tok_next (st2 : bstate) (el : Z) (hel : bool) : res (Z * bool) :=
  let line2 := b_line st2 in
  do e1 <- (if line2 - 1 <? el then is_empty st2 (line2 - 1) else Ok false);
  do e2 <- (if line2 <? el then is_empty st2 line2 else Ok false);
  Ok (if e2 then line2 + 1 else line2, if e2 then true else hel || e1).

Lemma tok_next_inv st2 el hel l' hel' : tok_next st2 el hel = Ok (l', hel') ->
  l' = b_line st2 \/ l' = b_line st2 + 1 /\ b_line st2 < el /\ is_empty st2 (b_line st2) = Ok true.
Proof.
  unfold tok_next. intros H. destruct (if b_line st2 - 1 <? el then _ else _) as [e1|?|]; [cbn [bind] in H | discriminate H..].
  destruct (b_line st2 <? el) eqn:X.
  - destruct (is_empty st2 (b_line st2)) as [[|]|?|]; [| |discriminate H..]; injection H as <- _; [right; split; [reflexivity | split; [lia | reflexivity]] | left; reflexivity].
  - injection H as <- _. left. reflexivity.
Qed.

(* the state the loop goes on from is written [st_line .. l'] in either case: [st_line s (b_line s)] is [s] by conversion
   for a state [s] that is a record update *)
Lemma tok_loop_round rf cf f rec st line el hel :
  tok_loop cfg rf cf (S f) rec st line el hel =
  if negb (line <? el) then Ok st
  else
    do (l, go) <- tok_head st line el;
    if go then
      do st2 <- try_rules cfg rf cf rec (c_rules cfg) (st_line st l) l el;
      do (l', hel') <- tok_next st2 el hel;
      tok_loop cfg rf cf f rec (st_line (st2 <| b_tight := negb hel |>) l') l' el hel'
    else Ok (st_line st l).
Proof.
  cbv beta zeta delta [tok_head tok_next].
  cbn beta iota delta [tok_loop]. destruct (negb (line <? el)); [reflexivity|].
  phases.
Qed.

(* The reference rule.  [ref_head]: whether line [sl] can begin a definition ('[' first, "]:" somewhere behind it);
   [ref_parse]: the definition read out of the stripped text of its lines - label as written, label normalized, title,
   destination normalized, number of line feeds before its end -, a function of that string alone; [ref_define]: the
   state with the definition recorded. *)
Definition ref_head (st : bstate) (sl : Z) : res bool :=
  do pos <- line_start st sl;
  do maximum <- tb (b_eMarks st) sl;
  do cb <- code_block_at cfg st sl;
  if cb then Ok false
  else do c0 <- py_idx (b_src st) pos;
       if negb (c0 =? 91) then Ok false else ref_prescan (S (length (b_src st))) (b_src st) pos maximum.

Definition ref_parse (rf cf : str -> str) (s : str) : option (str * str * str * str * Z) :=
  let mx := len s in
  let fuel := S (length s) in
  match ref_label fuel s 1 mx 0 with
  | None => None
  | Some (None, _) => None
  | Some (Some labelEnd, lines0) =>
      if negb (match char_at s (labelEnd + 1) with Some 58 => true | _ => false end) then None
      else
        let '(p1, lines1) := skip_ws_nl fuel s (labelEnd + 2) mx lines0 in
        let res := parse_link_destination s p1 mx in
        if negb (l_ok res) then None
        else
          let href := normalize_link rf (l_str res) in
          if negb (validate_link_re href) then None
          else
            let destEndPos := l_pos res in
            let destEndLineNo := lines1 + l_lines res in
            let '(p2, lines2) := skip_ws_nl fuel s destEndPos mx destEndLineNo in
            let tres := parse_link_title s p2 mx in
            let '(title, p3, lines3) :=
              if (p2 <? mx) && negb (destEndPos =? p2) && l_ok tres
              then (l_str tres, l_pos tres, lines2 + l_lines tres)
              else ([], destEndPos, destEndLineNo) in
            let p4 := skip_sp fuel s p3 mx in
            let '(title', p5, lines5) :=
              if (p4 <? mx) && not_nl_at s p4 && negb (len title =? 0)
              then ([], skip_sp fuel s destEndPos mx, destEndLineNo)
              else (title, p4, lines3) in
            if (p5 <? mx) && not_nl_at s p5 then None
            else
              let rawlabel := slice s 1 labelEnd in
              let label := normalize_reference cf rawlabel in
              if len label =? 0 then None else Some (rawlabel, label, title', href, lines5)
  end.

(* what r_reference does to env: create 'references' if absent, then the first definition of a label
   goes there and any later one to 'duplicate_refs' *)
Definition record_ref (e : envt) (label : str) (r : refrec) : envt :=
  let env1 := match e_refs e with None => mkEnv (Some []) (e_dups e) | Some _ => e end in
  let refs := match e_refs env1 with Some x => x | None => [] end in
  match alookup label refs with
  | None => mkEnv (Some (refs ++ [(label, r)])) (e_dups env1)
  | Some _ => mkEnv (Some refs) (Some ((match e_dups env1 with Some d => d | None => [] end) ++ [(label, r)]))
  end.

Definition ref_define (st1 : bstate) (old : str) (sl : Z) (rawlabel label title href : str) (lines : Z) : bstate :=
  let line' := sl + lines + 1 in
  let st2 := st_line st1 line' in
  let st3 := if c_inline_defs cfg
             then bpush st2 s_definition [] 0
                        (fun t => map_tok sl line' (set_meta t [(s_id, label); (s_title, title); (s_url, href); (s_label, rawlabel)]))
             else st2 in
  st_parent (st3 <| b_env := record_ref (b_env st1) label (mkRef title href (sl, line')) |>) old.

Lemma r_reference_eq rf cf term st sl el silent :
  r_reference cfg rf cf term st sl el silent =
  do go <- ref_head st sl;
  if negb go then Ok (false, st)
  else
    do (nl, _, st1) <- para_scan (S (Z.to_nat (b_lineMax st - sl))) term nm_reference (st_parent st nm_reference) (sl + 1) (b_lineMax st) false;
    do raw <- get_lines st1 sl nl (b_blkIndent st1) false;
    match ref_parse rf cf (py_strip raw) with
    | None => Ok (false, st1)
    | Some (rawlabel, label, title, href, lines) =>
        if silent then Ok (true, st1) else Ok (true, ref_define st1 (b_parentType st) sl rawlabel label title href lines)
    end.
Proof.
  (* all lets expanded: the tests of [ref_parse] stand on both sides and are split on both at once *)
  cbv beta zeta delta [ref_head ref_parse r_reference]. phases.
  (* the model writes env twice, [ref_define] once: the same state once it is known whether a token is pushed between *)
  unfold ref_define. destruct (c_inline_defs cfg); reflexivity.
Qed.

(* what a definition that is read consists of: a label, blanks, a destination that passes validateLink, blanks, maybe a
   title; its line count is that of the destination or that of the title, whichever it ends with *)
Lemma ref_parse_inv rf cf s rawlabel label title href lines :
  ref_parse rf cf s = Some (rawlabel, label, title, href, lines) ->
  exists labelEnd lines0 p1 lines1 p2 lines2,
    let res := parse_link_destination s p1 (len s) in
    ref_label (S (length s)) s 1 (len s) 0 = Some (Some labelEnd, lines0)
    /\ skip_ws_nl (S (length s)) s (labelEnd + 2) (len s) lines0 = (p1, lines1)
    /\ l_ok res = true /\ href = normalize_link rf (l_str res) /\ validate_link_re href = true
    /\ skip_ws_nl (S (length s)) s (l_pos res) (len s) (lines1 + l_lines res) = (p2, lines2)
    /\ (lines = lines1 + l_lines res
        \/ l_ok (parse_link_title s p2 (len s)) = true /\ lines = lines2 + l_lines (parse_link_title s p2 (len s))).
Proof.
  unfold ref_parse. cbv zeta. intros H.
  destruct (ref_label (S (length s)) s 1 (len s) 0) as [[[labelEnd|] lines0]|] eqn:RL; try discriminate H.
  match type of H with (if ?c then _ else _) = _ => destruct c; [discriminate H|] end.
  destruct (skip_ws_nl (S (length s)) s (labelEnd + 2) (len s) lines0) as [p1 lines1] eqn:W1.
  set (res := parse_link_destination s p1 (len s)) in *.
  destruct (l_ok res) eqn:RO; [|discriminate H].
  destruct (validate_link_re (normalize_link rf (l_str res))) eqn:V; [|discriminate H]. cbn [negb] in H.
  destruct (skip_ws_nl (S (length s)) s (l_pos res) (len s) (lines1 + l_lines res)) as [p2 lines2] eqn:W2.
  destruct ((p2 <? len s) && negb (l_pos res =? p2) && l_ok (parse_link_title s p2 (len s))) eqn:TC;
    match type of H with (let '(_, _) := (if ?c then _ else _) in _) = _ => destruct c end;
    match type of H with (if ?c then _ else _) = _ => destruct c; [discriminate H|] end;
    match type of H with (if ?c then _ else _) = _ => destruct c; [discriminate H|] end;
    injection H as _ _ _ <- <-; exists labelEnd, lines0, p1, lines1, p2, lines2; cbv zeta; fold res; rewrite RO;
    repeat (split; [first [reflexivity | assumption]|]); try (left; reflexivity).
  right. split; [|reflexivity]. destruct (l_ok (parse_link_title s p2 (len s))); [reflexivity | rewrite Bool.andb_false_r in TC; discriminate TC].
Qed.

(* The table rule.  [table_head]: the tests on the delimiter line [sl + 1] and on the header line [sl]; it answers the
   alignments and the header cells when a table begins on [sl].  [table_st6]: the state with table_open and the head
   pushed, from which the body rows are read; [table_st10]: the state the rule ends in, tbody (if one was opened at token
   [bi]) and table closed, their maps set. *)
Definition table_head (st : bstate) (sl el : Z) : res (option (list str * list str)) :=
  if el <? sl + 2 then Ok None
  else
    let nextLine := sl + 1 in
    do sc <- tb (b_sCount st) nextLine;
    if sc <? b_blkIndent st then Ok None
    else
      do cb <- code_block_at cfg st nextLine;
      if cb then Ok None
      else
        do pos <- line_start st nextLine;
        do em <- tb (b_eMarks st) nextLine;
        if em <=? pos then Ok None
        else
          do first_ch <- py_idx (b_src st) pos;
          if negb ((first_ch =? 124) || (first_ch =? 45) || (first_ch =? 58)) then Ok None
          else if em <=? pos + 1 then Ok None
          else
            do second_ch <- py_idx (b_src st) (pos + 1);
            if negb ((second_ch =? 124) || (second_ch =? 45) || (second_ch =? 58)) && negb (is_space second_ch) then Ok None
            else if (first_ch =? 45) && is_space second_ch then Ok None
            else
              do okc <- delim_chars (S (length (b_src st))) (b_src st) (pos + 2) em;
              if negb okc then Ok None
              else
                do delim <- get_line st (sl + 1);
                let dcols := split_char 124 delim in
                match table_aligns dcols 0 (len dcols) with
                | None => Ok None
                | Some aligns =>
                    do hraw <- get_line st sl;
                    let lineText := py_strip hraw in
                    if negb (mem_z 124 lineText) then Ok None
                    else
                      do cb2 <- code_block_at cfg st sl;
                      if cb2 then Ok None
                      else
                        let columns := trim_cols (escaped_split lineText) in
                        if (len columns =? 0) || negb (len columns =? len aligns) then Ok None else Ok (Some (aligns, columns))
                end.

Definition table_st1 (st : bstate) (sl : Z) : bstate :=
  bpush (st_parent st nm_table) [116; 97; 98; 108; 101; 95; 111; 112; 101; 110] nm_table 1 (map_tok sl 0).

Definition table_st6 (st : bstate) (aligns columns : list str) (sl : Z) : bstate :=
  let st2 := bpush (table_st1 st sl) [116; 104; 101; 97; 100; 95; 111; 112; 101; 110] [116; 104; 101; 97; 100] 1 (map_tok sl (sl + 1)) in
  let st3 := bpush st2 s_tr_open s_tr 1 (map_tok sl (sl + 1)) in
  let st4 := push_cells st3 [116; 104; 95; 111; 112; 101; 110] [116; 104; 95; 99; 108; 111; 115; 101] [116; 104]
                        aligns columns sl (sl + 1) false in
  let st5 := bpush st4 s_tr_close s_tr (-1) (fun t => t) in
  bpush st5 [116; 104; 101; 97; 100; 95; 99; 108; 111; 115; 101] [116; 104; 101; 97; 100] (-1) (fun t => t).

Definition table_st10 (st st7 : bstate) (tbody : option nat) (sl nl : Z) : bstate :=
  let st8 := match tbody with
             | Some bi =>
                 let s1 := bpush st7 [116; 98; 111; 100; 121; 95; 99; 108; 111; 115; 101] [116; 98; 111; 100; 121] (-1) (fun t => t) in
                 s1 <| b_tokens := set_map_at (b_tokens s1) bi (fun _ => Some (sl + 2, nl)) |>
             | None => st7 end in
  let st9 := bpush st8 [116; 97; 98; 108; 101; 95; 99; 108; 111; 115; 101] nm_table (-1) (fun t => t) in
  st_line (st_parent (st9 <| b_tokens := set_map_at (b_tokens st9) (length (b_tokens st)) (fun _ => Some (sl, nl)) |>) (b_parentType st)) nl.

Lemma r_table_eq term st sl el silent :
  r_table cfg term st sl el silent =
  do h <- table_head st sl el;
  match h with
  | None => Ok (false, st)
  | Some (aligns, columns) =>
      if silent then Ok (true, st)
      else
        do (nl, tbody, st7) <- table_rows cfg (S (Z.to_nat (el - sl))) term (table_st6 st aligns columns sl) aligns sl (sl + 2) el None;
        Ok (true, table_st10 st st7 tbody sl nl)
  end.
Proof.
  cbv beta zeta delta [table_head]. cbv beta delta [r_table]. phases.
Qed.

End Bodies.
