(* C09 / C18 at the HTML level for the nested-container class: the renderer on the tokens of
   parse(prefix(cs) s LF) (Lemmas/NestLine.v) - container tags level by level, the paragraph tags dropped exactly
   when the paragraph sits directly in a tight item, the inline children rendered once in the middle. *)
From MD Require Import Base.Py Base.Str Model.Token Model.Utils Model.Render Model.Block Model.Inline Model.Pipeline
     Lemmas.RenderLemmas Lemmas.ParaLine Lemmas.QuoteLine Lemmas.NestLine Lemmas.InlineEsc.

(* the start attribute of an ordered list that does not begin at 1:  start="N"  with N in decimal *)
Definition ol_attrs (mv : Z) : str :=
  if mv =? 1 then [] else [32] ++ escape_html s_start ++ [61; 34] ++ escape_html (str_of_aval (AInt mv)) ++ [34].

(* the HTML of the containers around mid, the rendered inline content.  hid: the enclosing container is a list item, so a
   paragraph that comes next is hidden (the list of a one-line document is tight) *)
Fixpoint nest_html (cs : list ctr) (hid : bool) (mid : str) : str :=
  match cs with
  | [] => if hid then mid else [60; 112; 62] ++ mid ++ [60; 47; 112; 62; 10]
  | CQ :: r => [60; 98; 108; 111; 99; 107; 113; 117; 111; 116; 101; 62; 10] ++ nest_html r false mid
               ++ [60; 47; 98; 108; 111; 99; 107; 113; 117; 111; 116; 101; 62; 10]
  | CI _ _ :: r => [60; 117; 108; 62; 10] ++ [60; 108; 105; 62] ++ (match r with [] => [] | _ => [10] end) ++ nest_html r true mid
                   ++ [60; 47; 108; 105; 62; 10] ++ [60; 47; 117; 108; 62; 10]
  | CO d0 ds _ _ :: r => [60; 111; 108] ++ ol_attrs (int_of_digits (d0 :: ds)) ++ [62; 10] ++ [60; 108; 105; 62] ++ (match r with [] => [] | _ => [10] end)
                         ++ nest_html r true mid ++ [60; 47; 108; 105; 62; 10] ++ [60; 47; 111; 108; 62; 10]
  end.

Lemma wrapc_head s ch cs lv hid : exists t r, wrapc s cs lv hid ch = t :: r /\ str_eqb (ttype t) s_inline = false /\ tnesting t = 1
  /\ thidden t = (match cs with [] => hid | _ => false end).
Proof.
  destruct cs as [|[|m k|d0 ds dl k] cs]; cbn [wrapc].
  - destruct hid; unfold hide_para, para_ch; eexists _, _; (split; [reflexivity|]); repeat split.
  - eexists _, _. split; [reflexivity|]. repeat split.
  - eexists _, _. split; [reflexivity|]. repeat split.
  - eexists _, _. split; [reflexivity|]. unfold ol_open_at. destruct (negb (int_of_digits (d0 :: ds) =? 1)); repeat split.
Qed.

Lemma html_lit l rest : html_of (CLit l :: rest) = l ++ html_of rest.
Proof. reflexivity. Qed.

Definition po_at (lv : Z) : token := map_tok 0 1 (set_level (set_block (new_token [112; 97; 114; 97; 103; 114; 97; 112; 104; 95; 111; 112; 101; 110] [112] 1) true) lv).
Definition pc_at (lv : Z) : token := set_level (set_block (new_token [112; 97; 114; 97; 103; 114; 97; 112; 104; 95; 99; 108; 111; 115; 101] [112] (-1)) true) lv.

Lemma po_tag lv : tag_tok (po_at lv) 1 [112] [].
Proof. repeat split. Qed.
Lemma pc_tag lv : tag_tok (pc_at lv) (-1) [112] [].
Proof. repeat split. Qed.
Lemma bq_open_tag lv : tag_tok (bq_open_at lv) 1 nm_blockquote [].
Proof. repeat split. Qed.
Lemma bq_close_tag lv : tag_tok (bq_close_at lv) (-1) nm_blockquote [].
Proof. repeat split. Qed.
Lemma ul_open_tag m lv : tag_tok (ul_open_at m lv) 1 [117; 108] [].
Proof. repeat split. Qed.
Lemma ul_close_tag m lv : tag_tok (ul_close_at m lv) (-1) [117; 108] [].
Proof. repeat split. Qed.
Lemma li_open_tag b body m lv : tag_tok (li_open_g b body m lv) 1 s_li [].
Proof. destruct b; repeat split. Qed.
Lemma li_close_tag m lv : tag_tok (li_close_at m lv) (-1) s_li [].
Proof. repeat split. Qed.
Lemma ol_close_tag dl lv : tag_tok (ol_close_at dl lv) (-1) [111; 108] [].
Proof. repeat split. Qed.
Lemma ol_open_tag dl mv lv : tag_tok (ol_open_at dl mv lv) 1 [111; 108] (ol_attrs mv).
Proof.
  unfold ol_open_at, ol_attrs. destruct (mv =? 1); cbn [negb]; repeat split.
Qed.

Section R.
Context (o : ropts) (s : str) (ch : list token) (cch : list chunk) (ch' : list token).
Context (HCH : render_inline_list o None ch = Ok (cch, ch')).

Lemma render_plain_then prev t rest cs2 rest' : unruled t -> render_list o (Some t) rest = Ok (cs2, rest') ->
  render_list o prev (t :: rest) = Ok (render_token o prev t (hd_error rest) ++ cs2, t :: rest').
Proof. intros P R. rewrite (render_list_plain _ _ _ _ P), R. reflexivity. Qed.

Lemma render_inl_then lv prev rest cs2 rest' : render_list o (Some (inl_at s lv ch')) rest = Ok (cs2, rest') ->
  render_list o prev (inl_at s lv ch :: rest) = Ok (cch ++ cs2, inl_at s lv ch' :: rest').
Proof. intros R. unfold inl_at in *. rewrite (render_list_inline o prev _ ch cch ch' rest) by first [reflexivity | exact HCH]. rewrite R. reflexivity. Qed.

(* the last token of a wrapped paragraph (the previous token of whatever follows) *)
Definition wrap_last (cs : list ctr) (lv : Z) (hid : bool) : token :=
  match cs with
  | [] => if hid then set_hidden (pc_at lv) true else pc_at lv
  | CQ :: _ => bq_close_at lv
  | CI m _ :: _ => ul_close_at m lv
  | CO _ _ dl _ :: _ => ol_close_at dl lv
  end.

(* the shape shared by the two kinds of list: open, item, body, item end, close *)
Lemma render_list_item (lo li_o lc_i lc : token) ltag lattrs (cs : list ctr) lv prev rest cs2 rest' :
  tag_tok lo 1 ltag lattrs -> tag_tok li_o 1 s_li [] -> tag_tok lc_i (-1) s_li [] -> tag_tok lc (-1) ltag [] ->
  prev_hidden prev = false ->
  (forall prev0 rest0, prev_hidden prev0 = false ->
     forall cs0 rest0', render_list o (Some (wrap_last cs (lv + 2) true)) rest0 = Ok (cs0, rest0') ->
     exists csw, render_list o prev0 (wrapc s cs (lv + 2) true ch ++ rest0) = Ok (csw ++ cs0, wrapc s cs (lv + 2) true ch' ++ rest0')
                 /\ html_of csw = nest_html cs true (html_of cch)) ->
  render_list o (Some lc) rest = Ok (cs2, rest') ->
  exists csw, render_list o prev (lo :: li_o :: (wrapc s cs (lv + 2) true ch ++ [lc_i; lc]) ++ rest)
              = Ok (csw ++ cs2, lo :: li_o :: (wrapc s cs (lv + 2) true ch' ++ [lc_i; lc]) ++ rest')
    /\ html_of csw = [60] ++ ltag ++ lattrs ++ [62; 10] ++ [60; 108; 105; 62] ++ (match cs with [] => [] | _ => [10] end)
                     ++ nest_html cs true (html_of cch) ++ [60; 47; 108; 105; 62; 10] ++ [60; 47] ++ ltag ++ [62; 10].
Proof.
  intros TO TI TCI TC NH IH RR. rewrite <- !app_assoc. cbn [app].
  pose proof (render_plain_then (Some lc_i) lc rest cs2 rest' (tt_plain _ _ _ _ TC) RR) as R1.
  pose proof (render_plain_then (Some (wrap_last cs (lv + 2) true)) lc_i _ _ _ (tt_plain _ _ _ _ TCI) R1) as R2.
  destruct (IH (Some li_o) _ (tt_visible _ _ _ _ TI) _ _ R2) as (csw & RW & HW).
  pose proof (render_plain_then (Some lo) li_o _ _ _ (tt_plain _ _ _ _ TI) RW) as R3.
  pose proof (render_plain_then prev lo _ _ _ (tt_plain _ _ _ _ TO) R3) as R4.
  rewrite R4. match goal with |- exists _, Ok (?a ++ ?b ++ csw ++ ?c ++ ?d ++ cs2, _) = _ /\ _ => exists (a ++ b ++ csw ++ c ++ d) end.
  split; [rewrite <- !app_assoc; reflexivity|].
  destruct (wrapc_head s ch cs (lv + 2) true) as (t0 & r0 & EH & TY0 & TN0 & TH0). rewrite EH. cbn [hd_error app].
  rewrite !html_of_app, HW, !(html_close_tag TCI), !(html_close_tag TC).
  rewrite (html_open_tag_lf TO o prev li_o NH (proj1 (tt_plain _ _ _ _ TI)) (tt_visible _ _ _ _ TI) (tt_nesting _ _ _ _ TI)).
  destruct cs as [|c cs'].
  - rewrite (html_open_tag_glued TI o (Some lo) t0 (tt_visible _ _ _ _ TO)) by (rewrite TH0; apply Bool.orb_true_r).
    cbn [app]. rewrite <- ?app_assoc. reflexivity.
  - rewrite (html_open_tag_lf TI o (Some lo) t0 (tt_visible _ _ _ _ TO) TY0 TH0 TN0).
    cbn [app]. rewrite <- ?app_assoc. reflexivity.
Qed.

Theorem render_wrapc : forall cs lv hid prev rest,
  prev_hidden prev = false ->
  forall cs2 rest', render_list o (Some (wrap_last cs lv hid)) rest = Ok (cs2, rest') ->
    exists csw, render_list o prev (wrapc s cs lv hid ch ++ rest) = Ok (csw ++ cs2, wrapc s cs lv hid ch' ++ rest')
                /\ html_of csw = nest_html cs hid (html_of cch).
Proof.
  induction cs as [|[|m k|d0 ds dl k] cs IH]; intros lv hid prev rest NH cs2 rest' RR; cbn [wrapc nest_html wrap_last] in *.
  - (* the paragraph; hidden tags render as nothing *)
    change (para_ch s lv ch) with [po_at lv; inl_at s lv ch; pc_at lv]. change (para_ch s lv ch') with [po_at lv; inl_at s lv ch'; pc_at lv].
    destruct hid; unfold hide_para; cbn [app].
    + assert (PC : unruled (set_hidden (pc_at lv) true)) by (split; reflexivity).
      assert (PO : unruled (set_hidden (po_at lv) true)) by (split; reflexivity).
      pose proof (render_plain_then (Some (inl_at s lv ch')) _ _ _ _ PC RR) as R1.
      pose proof (render_plain_then prev _ _ _ _ PO (render_inl_then lv _ _ _ _ R1)) as R2.
      exists cch. split; [rewrite R2, !render_token_hidden by reflexivity; reflexivity | reflexivity].
    + pose proof (render_plain_then (Some (inl_at s lv ch')) _ _ _ _ (tt_plain _ _ _ _ (pc_tag lv)) RR) as R1.
      pose proof (render_plain_then prev _ _ _ _ (tt_plain _ _ _ _ (po_tag lv)) (render_inl_then lv _ _ _ _ R1)) as R2.
      rewrite R2. match goal with |- exists _, Ok (?a ++ cch ++ ?b ++ cs2, _) = _ /\ _ => exists (a ++ cch ++ b) end.
      split; [rewrite <- !app_assoc; reflexivity|]. cbn [hd_error].
      rewrite !html_of_app, (html_close_tag (pc_tag lv)).
      rewrite (html_open_tag_glued (po_tag lv) o prev (inl_at s lv ch) NH eq_refl). reflexivity.
  - (* a block quote *)
    cbn [app]. rewrite <- !app_assoc. cbn [app].
    pose proof (render_plain_then (Some (wrap_last cs (lv + 1) false)) _ _ _ _ (tt_plain _ _ _ _ (bq_close_tag lv)) RR) as R1.
    destruct (IH (lv + 1) false (Some (bq_open_at lv)) _ eq_refl _ _ R1) as (csw & RW & HW).
    pose proof (render_plain_then prev _ _ _ _ (tt_plain _ _ _ _ (bq_open_tag lv)) RW) as R2.
    rewrite R2. match goal with |- exists _, Ok (?a ++ csw ++ ?b ++ cs2, _) = _ /\ _ => exists (a ++ csw ++ b) end.
    split; [rewrite <- !app_assoc; reflexivity|].
    destruct (wrapc_head s ch cs (lv + 1) false) as (t0 & r0 & EH & TY0 & TN0 & TH0). rewrite EH. cbn [hd_error app].
    assert (TH : thidden t0 = false) by (rewrite TH0; destruct cs; reflexivity).
    rewrite !html_of_app, HW, (html_close_tag (bq_close_tag lv)).
    rewrite (html_open_tag_lf (bq_open_tag lv) o prev t0 NH TY0 TH TN0). reflexivity.
  - exact (render_list_item _ _ _ _ _ _ cs lv prev rest cs2 rest' (ul_open_tag m lv) (li_open_tag false [] m (lv + 1)) (li_close_tag m (lv + 1))
             (ul_close_tag m lv) NH (IH (lv + 2) true) RR).
  - exact (render_list_item _ _ _ _ _ _ cs lv prev rest cs2 rest' (ol_open_tag dl _ lv) (li_open_tag true (d0 :: ds) dl (lv + 1)) (li_close_tag dl (lv + 1))
             (ol_close_tag dl lv) NH (IH (lv + 2) true) RR).
Qed.

End R.

Theorem render_nested o s cs ch cch ch' :
  render_inline_list o None ch = Ok (cch, ch') ->
  render o (wrapc s cs 0 false ch) = Ok (nest_html cs false (html_of cch), wrapc s cs 0 false ch').
Proof.
  intros HCH. unfold render.
  destruct (render_wrapc o s ch cch ch' HCH cs 0 false None [] eq_refl [] [] eq_refl) as (csw & RW & HW).
  rewrite !app_nil_r in RW. rewrite RW. cbn [bind]. rewrite HW. reflexivity.
Qed.

(* C09 at the HTML level: in every nesting of block quotes and list items the escaped text renders as
   escapeHtml(t) between the container tags, and as nothing else *)
Theorem render_nested_escaped_gen :
  forall cfg rf cf lt (segs : list seg), wf segs -> line_ok (src_of segs) ->
    mem_z 13 (src_of segs) = false -> mem_z 0 (src_of segs) = false ->
  forall rpre rpost, c_rules (p_block cfg) = rpre ++ nm_paragraph :: rpost ->
    Forall (fun n => str_eqb n nm_paragraph = false) rpre ->
    p_core cfg = [n_normalize; n_block; n_inline; n_text_join] ->
  forall ipre ipost, ic_rules (p_inline cfg) = ipre ++ n_escape :: ipost ->
    Forall (fun n => n = n_text \/ n = n_linkify \/ n = n_newline) ipre -> In n_text ipre ->
    ic_linkify (p_inline cfg) = false -> 0 < ic_maxNesting (p_inline cfg) ->
  forall cs, Forall okc cs -> Forall (reaches (p_block cfg)) cs -> weight cs < c_maxNesting (p_block cfg) ->
  forall env,
    render_md cfg rf cf lt (prefix cs ++ src_of segs ++ [10]) env
    = Ok (nest_html cs false (escape_html (text_of segs)), env).
Proof.
  intros cfg rf cf lt segs Hwf Hs H13 H0 rpre rpost HR Hpre Hcore ipre ipost HRi Hipre Hitext Hlink Hinest cs FO FR Hw env.
  unfold render_md.
  destruct (parse_nested_escaped_gen cfg rf cf lt segs Hwf Hs H13 H0 rpre rpost HR Hpre Hcore ipre ipost HRi Hipre Hitext Hlink Hinest cs FO FR Hw env)
    as (p & PE & Hp & Cp).
  rewrite PE. cbn [bind].
  assert (RI1 : render_inline_list (p_render cfg) None [p] = Ok ([CEsc (tcontent p)], [p])).
  { cbn [render_inline_list hd_error]. rewrite (render_text_token _ None p None Hp). reflexivity. }
  rewrite (render_nested (p_render cfg) (src_of segs) cs [p] _ _ RI1). cbn [bind].
  rewrite Cp. cbn [html_of flat_map chunk_html]. rewrite app_nil_r. reflexivity.
Qed.

Theorem render_nested_escaped :
  forall cfg rf cf lt (segs : list seg), wf segs -> line_ok (src_of segs) ->
    mem_z 13 (src_of segs) = false -> mem_z 0 (src_of segs) = false ->
  forall RA RB RC RD, c_rules (p_block cfg) = RA ++ nm_blockquote :: RB ++ nm_list :: RC ++ nm_paragraph :: RD ->
    Forall (fun n => n = nm_table \/ n = nm_code \/ n = nm_fence) RA ->
    Forall (fun n => n = nm_table \/ n = nm_code \/ n = nm_fence \/ n = nm_hr) RB ->
    Forall (fun n => str_eqb n nm_paragraph = false) RC ->
    p_core cfg = [n_normalize; n_block; n_inline; n_text_join] ->
  forall ipre ipost, ic_rules (p_inline cfg) = ipre ++ n_escape :: ipost ->
    Forall (fun n => n = n_text \/ n = n_linkify \/ n = n_newline) ipre -> In n_text ipre ->
    ic_linkify (p_inline cfg) = false -> 0 < ic_maxNesting (p_inline cfg) ->
  forall cs, Forall okc cs -> weight cs < c_maxNesting (p_block cfg) ->
  forall env,
    render_md cfg rf cf lt (prefix cs ++ src_of segs ++ [10]) env
    = Ok (nest_html cs false (escape_html (text_of segs)), env).
Proof.
  intros cfg rf cf lt segs Hwf Hs H13 H0 RA RB RC RD HC HA HB HCn Hcore ipre ipost HRi Hipre Hitext Hlink Hinest cs FO.
  destruct (std_paragraph (p_block cfg) RA RB RC RD HC HA HB HCn) as [HR Hpre].
  exact (render_nested_escaped_gen cfg rf cf lt segs Hwf Hs H13 H0 _ RD HR Hpre Hcore ipre ipost HRi Hipre Hitext Hlink Hinest cs FO
           (std_reaches (p_block cfg) RA RB RC RD HC HA HB cs)).
Qed.

(* no container: render(esc(t) LF) = <p> escapeHtml(t) </p> LF *)
Theorem render_para_esc :
  forall cfg rf cf lt (segs : list seg), wf segs -> line_ok (src_of segs) ->
    mem_z 13 (src_of segs) = false -> mem_z 0 (src_of segs) = false ->
  forall bpre bpost, c_rules (p_block cfg) = bpre ++ nm_paragraph :: bpost ->
    Forall (fun n => str_eqb n nm_paragraph = false) bpre -> 0 < c_maxNesting (p_block cfg) ->
    p_core cfg = [n_normalize; n_block; n_inline; n_text_join] ->
  forall ipre ipost, ic_rules (p_inline cfg) = ipre ++ n_escape :: ipost ->
    Forall (fun n => n = n_text \/ n = n_linkify \/ n = n_newline) ipre -> In n_text ipre ->
    ic_linkify (p_inline cfg) = false -> 0 < ic_maxNesting (p_inline cfg) ->
  forall env,
    render_md cfg rf cf lt (src_of segs ++ [10]) env
    = Ok ([60; 112; 62] ++ escape_html (text_of segs) ++ [60; 47; 112; 62; 10], env).
Proof.
  intros cfg rf cf lt segs Hwf Hs H13 H0 bpre bpost HR Hpre Hn Hcore ipre ipost HRi Hipre Hitext Hlink Hinest env.
  exact (render_nested_escaped_gen cfg rf cf lt segs Hwf Hs H13 H0 bpre bpost HR Hpre Hcore ipre ipost HRi Hipre Hitext Hlink Hinest
           [] (Forall_nil _) (Forall_nil _) Hn env).
Qed.

(* "> - x":  <blockquote> <ul> <li>x</li> </ul> </blockquote>;   "*  > x":  <ul> <li> <blockquote> <p>x</p> </blockquote> </li> </ul> *)
Example nest_html_examples :
  nest_html [CQ; CI 45 1] false [120] = [60; 98; 108; 111; 99; 107; 113; 117; 111; 116; 101; 62; 10; 60; 117; 108; 62; 10; 60; 108; 105; 62; 120; 60; 47; 108; 105; 62; 10; 60; 47; 117; 108; 62; 10; 60; 47; 98; 108; 111; 99; 107; 113; 117; 111; 116; 101; 62; 10]
  /\ nest_html [CI 42 2; CQ] false [120] = [60; 117; 108; 62; 10; 60; 108; 105; 62; 10; 60; 98; 108; 111; 99; 107; 113; 117; 111; 116; 101; 62; 10; 60; 112; 62; 120; 60; 47; 112; 62; 10; 60; 47; 98; 108; 111; 99; 107; 113; 117; 111; 116; 101; 62; 10; 60; 47; 108; 105; 62; 10; 60; 47; 117; 108; 62; 10].
Proof. split; reflexivity. Qed.
