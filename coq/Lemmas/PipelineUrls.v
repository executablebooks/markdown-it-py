(* C05 / C16, end to end on the model: for EVERY source, every env whose recorded destinations
   are validated normalizeLink results, every configuration and every value of the opaque
   dependencies: (1) parse leaves env extended only (first definition wins, later ones are
   duplicates, every recorded destination validated); (2) every href / src attribute on every token
   of the result and on every child of an inline token is empty or a normalizeLink result that
   validateLink accepted -- hence, by the URL theorems, URL-safe ASCII only. *)
From MD Require Import Base.Py Model.Token Model.StateBlock Model.Url Model.Render Model.Inline Model.Pipeline
     Lemmas.BlockLemmas Lemmas.UrlLemmas Lemmas.BlockKinds Lemmas.EnvLemmas Lemmas.InlineUrls Lemmas.PipelineSafe.

Section Urls.
Context (cfg : pcfg) (rf cf lt : str -> str).
Context (CS : chains_sub (p_block cfg)).

Notation Wt := (W rf).

Definition url_inv (t : token) : Prop :=
  Wt t /\ forall ch, tchildren t = Some ch -> str_eqb (ttype t) s_inline = true -> Forall Wt ch.

(* block tokens carry no href / src at all *)
Lemma is_W ty tag t : is ty tag t -> Wt t.
Proof.
  intros (_ & _ & _ & N & _ & N3). split.
  - intros k v I K. exfalso. exact (N k v I K).
  - unfold named_attrs. eapply Forall_impl; [|exact N3]. intros kv [E|E]; rewrite E; cbn; tauto.
Qed.

Lemma env_ext_good e e' : env_ext rf e e' -> env_good rf e -> env_good rf e'.
Proof.
  intros (a & d & R & _ & G & _ & _) H. unfold env_good in *. rewrite R. apply Forall_app. split; assumption.
Qed.

Lemma entry_urls_good inl src env ts env' : env_good rf env ->
  entry cfg rf cf lt inl src env = Ok (ts, env') -> Forall url_inv ts /\ env_good rf env'.
Proof.
  assert (WF : forall t t', ttype t' = ttype t -> ttag t' = ttag t -> tattrs t' = tattrs t -> Wt t -> Wt t')
    by (intros t t' _ _ A; apply W_attrs, A).
  apply (entry_inv cfg rf cf lt CS Wt Wt (env_good rf) WF WF).
  - intros t. apply W_attrs. destruct t; reflexivity.
  - intros s e tk r HE HT. apply inline_parse_urls; assumption.
  - intros n t P. destruct (P_rule_kind_ok _ _ _ P) as (ty & tag & I & _). exact (is_W _ _ _ I).
  - apply W_nil. reflexivity.
  - intros s e tk b BP. apply env_ext_good. eapply block_parse_env; exact BP.
Qed.

Theorem parse_urls_good src env ts env' :
  env_good rf env -> parse cfg rf cf lt src env = Ok (ts, env') -> Forall url_inv ts /\ env_good rf env'.
Proof. exact (entry_urls_good false src env ts env'). Qed.

Theorem parse_inline_urls_good src env ts env' :
  env_good rf env -> parse_inline cfg rf cf lt src env = Ok (ts, env') -> Forall url_inv ts /\ env_good rf env'.
Proof. exact (entry_urls_good true src env ts env'). Qed.

(* what "good" buys: every character of an emitted URL is URL-safe ASCII *)
Theorem good_url_chars (RF : forall s, Forall code_point (rf s)) v : gurl rf v -> forallb url_char v = true.
Proof.
  intros [-> | (raw & -> & _)]; [reflexivity|]. unfold normalize_link. apply encode_alphabet, RF.
Qed.

(* C04: the attribute names of every token of the result, and of every child of an inline token, come
   from the fixed vocabulary [attr_names] - no input can introduce an attribute *)
Definition names_inv (t : token) : Prop :=
  named_attrs t /\ forall ch, tchildren t = Some ch -> str_eqb (ttype t) s_inline = true -> Forall named_attrs ch.

Lemma url_inv_names t : url_inv t -> names_inv t.
Proof. exact (tok_lift_impl Wt named_attrs Wt named_attrs t (@proj2 _ _) (fun x => @proj2 _ _)). Qed.

Theorem parse_attr_names src env ts env' :
  env_good rf env -> parse cfg rf cf lt src env = Ok (ts, env') -> Forall names_inv ts.
Proof. intros HE E. eapply Forall_impl; [|exact (proj1 (parse_urls_good src env ts env' HE E))]. exact url_inv_names. Qed.

Theorem parse_inline_attr_names src env ts env' :
  env_good rf env -> parse_inline cfg rf cf lt src env = Ok (ts, env') -> Forall names_inv ts.
Proof. intros HE E. eapply Forall_impl; [|exact (proj1 (parse_inline_urls_good src env ts env' HE E))]. exact url_inv_names. Qed.

End Urls.

(* C16, for a whole parse and any core chain: env only grows (no hypothesis on the block chains: only the block rule touches env) *)
Lemma core_rule_env cfg rf cf lt name st st' :
  core_rule cfg rf cf lt name st = Ok st' -> env_ext rf (c_env st) (c_env st').
Proof.
  unfold core_rule. intros E.
  destruct (str_eqb name n_normalize); [rfinish E; apply env_ext_refl|].
  destruct (str_eqb name n_block).
  { destruct (c_inlineMode st); [rfinish E; apply env_ext_refl|].
    apply bind_ok in E as (b & BP & E).
    rfinish E. cbn [c_env]. eapply block_parse_env; exact BP. }
  destruct (str_eqb name n_inline).
  { destruct (inline_all cfg rf cf lt (c_tokens st) (c_env st)) as [ts|?|]; cbn [bind] in E; try discriminate E. rfinish E. apply env_ext_refl. }
  destruct (str_eqb name n_linkify); [destruct (p_linkify cfg); [discriminate E | rfinish E; apply env_ext_refl]|].
  destruct (str_eqb name n_replacements); [rfinish E; apply env_ext_refl|].
  destruct (str_eqb name n_smartquotes); [rfinish E; apply env_ext_refl|].
  destruct (str_eqb name n_text_join); [rfinish E; apply env_ext_refl|].
  rfinish E. apply env_ext_refl.
Qed.

Theorem parse_env_extends cfg rf cf lt src env ts env' :
  parse cfg rf cf lt src env = Ok (ts, env') -> env_ext rf env env'.
Proof.
  unfold parse. intros E.
  apply bind_ok in E as (st & CP & E).
  rfinish E.
  assert (G : forall names s s', core_process cfg rf cf lt names s = Ok s' -> env_ext rf (c_env s) (c_env s')).
  { induction names as [|n rest IH]; intros s s' H; cbn [core_process] in H; [rfinish H; apply env_ext_refl|].
    apply bind_ok in H as (s1 & CR & H).
    eapply env_ext_trans; [eapply core_rule_env; exact CR | eapply IH; exact H]. }
  exact (G _ _ _ CP).
Qed.

(* "[a](/u?x=é) ![i][r] <http://h.x/p>\n\n[r]: /img.png 't'\n\n[r]: /dup\n" : an inline link, an image through a reference, an
   autolink, a definition and a duplicate of it *)
Definition ex_src2 : str :=
  [91; 97; 93; 40; 47; 117; 63; 120; 61; 233; 41; 32; 33; 91; 105; 93; 91; 114; 93; 32; 60; 104; 116; 116; 112; 58; 47; 47; 104; 46; 120; 47; 112; 62; 10; 10; 91; 114; 93; 58; 32; 47; 105; 109; 103; 46; 112; 110; 103; 32; 39; 116; 39; 10; 10; 91; 114; 93; 58; 32; 47; 100; 117; 112; 10].

Example urls_theorem_applies :
  env_good (fun s => s) env0
  /\ exists ts e, parse ex_cfg (fun s => s) (fun s => s) (fun s => s) ex_src2 env0 = Ok (ts, e)
                  /\ env_refs e <> [] /\ env_dups e <> [] /\ 3 <= len ts.
Proof.
  split; [constructor|]. eexists. eexists. split; [vm_compute; reflexivity|]. split; [vm_compute; intros X; discriminate X|]. split; [vm_compute; intros X; discriminate X | vm_compute; intros X; discriminate X].
Qed.
