(* Small facts on the block model that several files use or that a property states as they are: the line scan as a
   fold, what a push does to the level, the thematic break rule, the table rule on a source without a pipe, para_scan
   as a preorder walk, what the reference rule does to env. *)
From MD Require Import Base.Py Base.Str Model.Token Model.Utils Model.StateBlock Model.Block Lemmas.StrLemmas
     Lemmas.Phases.
From Coq Require Import ZifyBool.

Lemma scan_loop_app n : forall a s pos b,
  scan_loop n s pos (a ++ b) = scan_loop n (scan_loop n s pos a) (pos + len a) b.
Proof.
  induction a as [|c a IH]; intros s pos b; cbn [app scan_loop].
  - unfold len. cbn. rewrite Z.add_0_r. reflexivity.
  - rewrite IH. f_equal. unfold len. cbn [length]. lia.
Qed.

Lemma scan_step_lf n s pos :
  let s' := scan_step n s pos 10 in
  sc_found s' = false /\ sc_indent s' = 0 /\ sc_offset s' = 0 /\ sc_start s' = pos + 1
  /\ sc_bM s' = sc_start s :: sc_bM s /\ sc_eM s' = pos :: sc_eM s
  /\ sc_tS s' = sc_indent s :: sc_tS s /\ sc_sC s' = sc_offset s :: sc_sC s.
Proof.
  unfold scan_step. change (is_space 10) with false. rewrite Bool.andb_false_r.
  change (10 =? 10) with true. cbn. repeat split; reflexivity.
Qed.

Lemma bpush_level st ty tag nesting f :
  (forall t, tlevel (f t) = tlevel t) ->
  b_level (bpush st ty tag nesting f) = b_level st + (if 0 <? nesting then 1 else if nesting <? 0 then -1 else 0)
  /\ exists t, b_tokens (bpush st ty tag nesting f) = b_tokens st ++ [t]
               /\ tlevel t = (if nesting <? 0 then b_level st - 1 else b_level st).
Proof.
  intros Hf. unfold bpush. cbn. split.
  - destruct (0 <? nesting) eqn:E1, (nesting <? 0) eqn:E2; lia.
  - eexists. split; [reflexivity|]. rewrite Hf. reflexivity.
Qed.

Lemma list_blanks_bq : forall fuel src pos mx offset bs,
  list_blanks fuel src pos mx offset bs = bq_blanks fuel src pos mx offset bs false.
Proof.
  induction fuel as [|f IH]; intros src pos mx offset bs; cbn [list_blanks bq_blanks]; [reflexivity|].
  destruct (negb (pos <? mx)); [reflexivity|]. destruct (py_idx src pos) as [ch|?|]; cbn [bind]; try reflexivity.
  unfold is_space. rewrite Z.add_0_r. destruct (ch =? 9); cbn [orb]; [apply IH|]. destruct (ch =? 32); [apply IH | reflexivity].
Qed.

Fixpoint count_marker (src : str) (marker : Z) : Z :=
  match src with [] => 0 | c :: r => (if c =? marker then 1 else 0) + count_marker r marker end.

Lemma hr_scan_count : forall fuel src pos maximum marker cnt r,
  hr_scan fuel src pos maximum marker cnt = Ok (Some r) ->
  0 <= pos -> 0 <= maximum -> (Z.to_nat (maximum - pos) < fuel)%nat -> maximum <= len src ->
  r = cnt + count_marker (slice src pos maximum) marker.
Proof.
  induction fuel as [|f IH]; intros src pos maximum marker cnt r H Hp Hm0 Hf Hm; [lia|].
  cbn [hr_scan] in H. destruct (pos <? maximum) eqn:E; cbn [negb] in H.
  - destruct (py_idx src pos) as [ch|e|] eqn:P; cbn [bind] in H; try discriminate.
    destruct (negb (ch =? marker) && negb (is_space ch)) eqn:B; [discriminate|].
    apply IH in H; try lia.
    rewrite (slice_cons src pos maximum ch) by (try lia; exact P).
    cbn [count_marker]. rewrite H. destruct (ch =? marker); lia.
  - injection H as <-. rewrite slice_empty by lia. cbn. lia.
Qed.

(* r_hr, on success in normal mode: one token, map = [startLine, startLine+1), the line cursor
   advances by exactly one, and markup = marker repeated as many times as it occurs in the line *)
Theorem r_hr_spec cfg st startLine endLine st' :
  r_hr cfg st startLine endLine false = Ok (true, st') ->
  b_line st' = startLine + 1 /\
  exists t pos maximum marker,
    b_tokens st' = b_tokens st ++ [t] /\ tmap t = Some (startLine, startLine + 1)
    /\ line_start st startLine = Ok pos /\ tb (b_eMarks st) startLine = Ok maximum
    /\ char_at (b_src st) pos = Some marker
    /\ (0 <= pos -> 0 <= maximum <= len (b_src st) ->
        tmarkup t = rep marker (1 + count_marker (slice (b_src st) (pos + 1) maximum) marker)).
Proof.
  unfold r_hr. intros H.
  destruct (line_start st startLine) as [pos|e|] eqn:LS; cbn [bind] in H; try discriminate.
  destruct (tb (b_eMarks st) startLine) as [maximum|e|] eqn:EM; cbn [bind] in H; try discriminate.
  destruct (code_block_at cfg st startLine) as [cb|e|]; cbn [bind] in H; try discriminate.
  destruct cb; [discriminate|].
  destruct (char_at (b_src st) pos) as [marker|] eqn:CA; [|discriminate].
  destruct (negb ((marker =? 42) || (marker =? 45) || (marker =? 95))); [discriminate|].
  destruct (hr_scan (S (length (b_src st))) (b_src st) (pos + 1) maximum marker 1) as [[cnt|]|e|] eqn:HS;
    cbn [bind] in H; try discriminate.
  destruct (cnt <? 3); [discriminate|]. injection H as <-.
  split; [reflexivity|].
  eexists _, pos, maximum, marker. repeat split; try reflexivity; try assumption.
  intros Hp Hm. unfold len in Hm.
  eapply hr_scan_count in HS; [subst cnt; reflexivity | lia | lia | lia | unfold len; lia].
Qed.

Lemma In_firstn {A} (x : A) n l : In x (firstn n l) -> In x l.
Proof. revert l; induction n as [|n IH]; intros [|y l] H; cbn in *; try contradiction. destruct H; [left; assumption | right; apply IH; assumption]. Qed.
Lemma In_skipn {A} (x : A) n l : In x (skipn n l) -> In x l.
Proof. revert l; induction n as [|n IH]; intros [|y l] H; cbn in *; try contradiction; auto. Qed.

Lemma mem_slice c (s : str) a b : mem_z c (slice s a b) = true -> mem_z c s = true.
Proof.
  unfold slice, mem_z. destruct (_ <=? _); [discriminate|].
  rewrite !existsb_exists. intros [x [Hin E]]. exists x. split; [|exact E].
  eapply In_skipn, In_firstn, Hin.
Qed.

Lemma In_lstrip p (s : str) x : In x (lstrip_by p s) -> In x s.
Proof. induction s as [|c s IH]; cbn; intros H; [contradiction|]. destruct (p c); [right; apply IH, H | exact H]. Qed.

Lemma mem_strip c p (s : str) : mem_z c (strip_by p s) = true -> mem_z c s = true.
Proof.
  unfold strip_by, rstrip_by, mem_z. rewrite !existsb_exists. intros [x [Hin E]]. exists x. split; [|exact E].
  apply in_rev in Hin. apply In_lstrip in Hin. apply in_rev in Hin. apply In_lstrip in Hin. exact Hin.
Qed.

Lemma get_line_mem st l x c : get_line st l = Ok x -> mem_z c x = true -> mem_z c (b_src st) = true.
Proof.
  unfold get_line. destruct (line_start st l); cbn [bind]; try discriminate.
  destruct (tb (b_eMarks st) l); cbn [bind]; try discriminate.
  intros H; injection H as <-. apply mem_slice.
Qed.

Lemma table_head_nopipe cfg st sl el h : mem_z 124 (b_src st) = false -> table_head cfg st sl el = Ok h -> h = None.
Proof.
  unfold table_head. intros NP H.
  destruct (get_line st sl) as [hraw|?|] eqn:G; cbn [bind] in H.
  1: assert (M : mem_z 124 (py_strip hraw) = false)
       by (destruct (mem_z 124 (py_strip hraw)) eqn:Q; [rewrite (get_line_mem _ _ _ _ G (mem_strip _ _ _ Q)) in NP; discriminate NP | reflexivity]);
     rewrite M in H; cbn [negb] in H.
  all: repeat rstep H; injection H as <-; reflexivity.
Qed.

(* the table rule is inert on a source without a pipe: whatever the state and mode, if it returns at all it returns
   (false, unchanged state) *)
Theorem table_inert cfg term st startLine endLine silent r :
  mem_z 124 (b_src st) = false ->
  r_table cfg term st startLine endLine silent = Ok r -> r = (false, st).
Proof.
  intros NP H. rewrite r_table_eq in H.
  destruct (table_head cfg st startLine endLine) as [h|?|] eqn:TH; [|discriminate H..].
  rewrite (table_head_nopipe _ _ _ _ _ NP TH) in H. injection H as <-. reflexivity.
Qed.

Definition env_refs (e : envt) : list (str * refrec) := match e_refs e with Some r => r | None => [] end.
Definition env_dups (e : envt) : list (str * refrec) := match e_dups e with Some r => r | None => [] end.

(* a terminator chain that does not touch env (true of the built-in silent rules) *)
Definition term_keeps_env (term : term_t) : Prop :=
  forall chain s l e r s', term chain s l e = Ok (r, s') -> b_env s' = b_env s.

(* What the continuation scan of paragraph, setext heading and reference does from line nl on, as a relation: it stops
   at the end of the range, on a blank line, on an underline (setext level 1 or 2) or where the terminator chain says
   so, and else goes on to the next line - in the state the chain returned, if it was asked.  The scan answers and
   asks; it writes nothing itself. *)
Inductive para_scanned (term : term_t) (chain : str) (el : Z) : bstate -> Z -> Z * option (Z * Z) * bstate -> Prop :=
| ps_end st nl : el <= nl -> para_scanned term chain el st nl (nl, None, st)
| ps_blank st nl : nl < el -> is_empty st nl = Ok true -> para_scanned term chain el st nl (nl, None, st)
| ps_underline st nl m l : nl < el -> is_empty st nl = Ok false -> 1 <= l <= 2 -> para_scanned term chain el st nl (nl, Some (m, l), st)
| ps_stop st nl st1 : nl < el -> is_empty st nl = Ok false -> term chain st nl el = Ok (true, st1) ->
    para_scanned term chain el st nl (nl, None, st1)
| ps_next st nl st1 res : nl < el -> is_empty st nl = Ok false -> st1 = st \/ term chain st nl el = Ok (false, st1) ->
    para_scanned term chain el st1 (nl + 1) res -> para_scanned term chain el st nl res.

Lemma para_scan_scanned term chain el cu : forall fuel st nl res,
  para_scan fuel term chain st nl el cu = Ok res -> para_scanned term chain el st nl res.
Proof.
  induction fuel as [|f IH]; intros st nl res H; [discriminate H|].
  cbn [para_scan] in H.
  destruct (negb (nl <? el)) eqn:LT; [rfinish H; apply ps_end; lia|].
  assert (nl < el) by lia.
  rbind H as e eqn:IE.
  destruct e; [rfinish H; apply ps_blank; assumption|].
  rstep H. rename x into sc.
  rstep H; [apply (ps_next _ _ _ st nl st); auto|].
  rbind H as ul eqn:UL.
  destruct ul as [[m l]|].
  - rfinish H. apply ps_underline; [assumption..|].
    destruct (cu && (b_blkIndent st <=? sc)); [|discriminate UL].
    repeat rstep UL; try discriminate UL. injection UL as [= _ <-].
    match goal with |- context [if ?c then 1 else 2] => destruct c end; lia.
  - rstep H; [apply (ps_next _ _ _ st nl st); auto|].
    rbind H as [t st1] eqn:TE.
    destruct t; [rfinish H; apply (ps_stop _ _ _ st nl st1); assumption | apply (ps_next _ _ _ st nl st1); auto].
Qed.

Lemma para_scan_rel (Rel : bstate -> bstate -> Prop) (Rrefl : forall s, Rel s s) (Rtrans : forall a b c, Rel a b -> Rel b c -> Rel a c)
    term chain (T : forall s a b r s', term chain s a b = Ok (r, s') -> Rel s s') fuel st nl el cu r u st' :
  para_scan fuel term chain st nl el cu = Ok (r, u, st') -> Rel st st'.
Proof.
  intros H. apply para_scan_scanned in H. remember (r, u, st') as res eqn:E. revert r u st' E.
  induction H as [st nl|st nl|st nl m l|st nl st1 ? ? TE|st nl st1 res ? ? [->|TE] _ IH]; intros r u st' E; try (injection E as <- <- <-).
  1-3: apply Rrefl.
  - exact (T _ _ _ _ _ TE).
  - exact (IH _ _ _ E).
  - exact (Rtrans _ _ _ (T _ _ _ _ _ TE) (IH _ _ _ E)).
Qed.

Lemma para_scan_env : forall fuel tm chain st nl el cu r u st',
  term_keeps_env tm -> para_scan fuel tm chain st nl el cu = Ok (r, u, st') -> b_env st' = b_env st.
Proof.
  intros fuel tm chain st nl el cu r u st' HT.
  apply (para_scan_rel (fun s s' => b_env s' = b_env s)); [reflexivity | intros a b c E1 E2; congruence | apply HT].
Qed.

(* a reference call that does not succeed, or is silent, leaves env unchanged; a successful
   non-silent call records exactly one definition, with the map of its own lines: as a new entry
   when the label is absent, as a duplicate when present; nothing is overwritten or removed *)
Theorem reference_env cfg rf cf tm st startLine endLine silent b st' :
  term_keeps_env tm ->
  r_reference cfg rf cf tm st startLine endLine silent = Ok (b, st') ->
  (b = false \/ silent = true -> b_env st' = b_env st)
  /\ (b = true -> silent = false ->
      exists label rec,
        r_map rec = (startLine, b_line st') /\
        ((alookup label (env_refs (b_env st)) = None
          /\ e_refs (b_env st') = Some (env_refs (b_env st) ++ [(label, rec)])
          /\ e_dups (b_env st') = e_dups (b_env st))
         \/ (alookup label (env_refs (b_env st)) <> None
             /\ e_refs (b_env st') = Some (env_refs (b_env st))
             /\ e_dups (b_env st') = Some (env_dups (b_env st) ++ [(label, rec)])))).
Proof.
  intros HT H. rewrite r_reference_eq in H.
  match goal with |- ?G => assert (NO : forall b0 s, b_env s = b_env st -> b0 = false \/ silent = true -> Ok (b0, s) = Ok (b, st') -> G) end.
  { intros b0 s E D X. injection X as <- <-. split; [intros _; exact E | intros B S; destruct D; congruence]. }
  rstep H. rstep H; [exact (NO _ _ eq_refl (or_introl eq_refl) H)|].
  rbind H as [[nextLine u] st1] eqn:PS. apply para_scan_env in PS; [|exact HT]. change (b_env st1 = b_env st) in PS.
  rstep H.
  destruct (ref_parse rf cf (py_strip x0)) as [[[[[rawlabel label] title] href] lines]|]; [|exact (NO _ _ PS (or_introl eq_refl) H)].
  destruct silent; [exact (NO _ _ PS (or_intror eq_refl) H)|].
  injection H as <- <-. split; [intros [X|X]; discriminate X|]. intros _ _.
  exists label, (mkRef title href (startLine, startLine + lines + 1)).
  split; [unfold ref_define; destruct (c_inline_defs cfg); reflexivity|].
  change (b_env (ref_define cfg st1 (b_parentType st) startLine rawlabel label title href lines))
    with (record_ref (b_env st1) label (mkRef title href (startLine, startLine + lines + 1))).
  rewrite PS. unfold record_ref, env_refs, env_dups.
  destruct (e_refs (b_env st)) as [refs|] eqn:ER; cbn; rewrite ?ER; cbn; [destruct (alookup label refs) eqn:AL; cbn; rewrite ?AL; cbn|].
  - right. split; [discriminate|]. split; reflexivity.
  - left. split; [reflexivity|]. split; reflexivity.
  - left. split; [reflexivity|]. split; reflexivity.
Qed.
