(* C01, whole pipeline: MarkdownIt.render and renderInline never raise.  The renderer's only raising
   site is attrJoin on a fence token whose "class" attribute is not a string; the parser never puts
   an integer "class" on any token (vocabulary of Lemmas/BlockKinds.v) and no inline child is a fence. *)
From MD Require Import Base.Py Model.Token Model.Render Model.Block Model.Inline Model.Pipeline Lemmas.TotalLemmas
     Lemmas.BlockKinds Lemmas.InlineKinds Lemmas.PipelineSafe Lemmas.NoRaise Lemmas.InlineSafe Lemmas.ParseSafe.

Definition fence_ok (t : token) : Prop := str_eqb (ttype t) s_fence = true -> class_ok t.

Definition fence_ok_top (t : token) : Prop :=
  fence_ok t /\ forall ch, tchildren t = Some ch -> str_eqb (ttype t) s_inline = true -> Forall fence_ok ch.

Theorem render_total' o : forall l p, Forall fence_ok_top l -> exists r, render_list o p l = Ok r.
Proof. exact (render_total_fence o). Qed.

Lemma no_class_ok t : no_url_attrs t -> class_ok t.
Proof.
  intros [_ [N _]]. unfold class_ok. destruct (alookup s_class (tattrs t)) as [[v|z]|] eqn:E; try exact I.
  apply alookup_In_key in E. exact (N z E).
Qed.

Section Whole.
Context (cfg : pcfg) (rf cf lt : str -> str).
Context (CS : chains_sub (p_block cfg)).

Definition f_inv : token -> Prop := tok_lift fence_ok (V (p_inline cfg)).

Lemma V_fence_ok t : V (p_inline cfg) t -> fence_ok t.
Proof.
  intros H F. exfalso. unfold V, is0 in H.
  repeat match goal with H : _ \/ _ |- _ => destruct H as [H|H] end;
    try (match goal with H : ic_html _ = true /\ _ |- _ => destruct H as [_ H] end);
    destruct H as [A _]; rewrite A in F; vm_compute in F; discriminate F.
Qed.

Lemma f_inv_top t : f_inv t -> fence_ok_top t.
Proof. apply tok_lift_impl; [exact (fun x => x) | exact V_fence_ok]. Qed.

Lemma entry_renderable inl src env ts env' : entry cfg rf cf lt inl src env = Ok (ts, env') -> Forall fence_ok_top ts.
Proof.
  intros X. eapply Forall_impl; [exact f_inv_top|].
  refine (proj1 (entry_inv cfg rf cf lt CS fence_ok (V (p_inline cfg)) (fun _ => True) _ (V_fields cfg) (join_tok_V cfg) _ _ _ _
                           inl src env ts env' I X)).
  - intros t t' T1 _ T3. unfold fence_ok, class_ok. rewrite T1, T3. exact (fun x => x).
  - intros s e tk r _. apply inline_parse_kinds.
  - intros n t P _. destruct (P_rule_kind_ok _ _ _ P) as (ty & tag & (_ & _ & _ & N) & _). exact (no_class_ok _ N).
  - intros F. discriminate F.
  - intros; exact I.
Qed.

Theorem parse_renderable src env ts env' : parse cfg rf cf lt src env = Ok (ts, env') -> Forall fence_ok_top ts.
Proof. exact (entry_renderable false src env ts env'). Qed.
Theorem parse_inline_renderable src env ts env' : parse_inline cfg rf cf lt src env = Ok (ts, env') -> Forall fence_ok_top ts.
Proof. exact (entry_renderable true src env ts env'). Qed.

Context (TNO : term_names_ok (p_block cfg)) (PA : mem_str nm_paragraph (c_rules (p_block cfg)) = true).
Context (NL1 : ic_linkify (p_inline cfg) = false) (NL2 : p_linkify cfg = false).
Context (ORD : order_ok (ic_rules2 (p_inline cfg)) = true).

Theorem render_md_no_raise src env : forall e, render_md cfg rf cf lt src env <> Raise e.
Proof.
  intros e. unfold render_md.
  destruct (parse cfg rf cf lt src env) as [[ts env']|e'|] eqn:P; cbn [bind]; [| |discriminate].
  - destruct (render_total' (p_render cfg) ts None (parse_renderable _ _ _ _ P)) as [[cs ts'] R].
    unfold render. rewrite R. cbn [bind]. discriminate.
  - exfalso. exact (parse_no_raise cfg rf cf lt TNO PA NL1 NL2 ORD src env e' P).
Qed.

Theorem render_inline_md_no_raise src env : forall e, render_inline_md cfg rf cf lt src env <> Raise e.
Proof.
  intros e. unfold render_inline_md.
  destruct (parse_inline cfg rf cf lt src env) as [[ts env']|e'|] eqn:P; cbn [bind]; [| |discriminate].
  - destruct (render_total' (p_render cfg) ts None (parse_inline_renderable _ _ _ _ P)) as [[cs ts'] R].
    unfold render. rewrite R. cbn [bind]. discriminate.
  - exfalso. exact (parse_inline_no_raise cfg rf cf lt TNO PA NL1 NL2 ORD src env e' P).
Qed.

End Whole.
