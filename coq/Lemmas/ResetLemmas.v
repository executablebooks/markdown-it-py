(* C14: reset_rules restores the rule set in force on entry, on every exit path
   of the body (normal, raising, nested), for any body of management calls. *)
From MD Require Import Base.Py Model.Ruler Model.Instance Lemmas.RulerCoherent Lemmas.RulerSets
     Lemmas.InstanceLemmas.

Local Arguments restore : simpl never.

Definition run_body (fin : bool) (r : option Z) (body : list mop) (i : inst) : inst * res mout :=
  (fix go (ops : list mop) (i : inst) {struct ops} : inst * res mout :=
     match ops with
     | [] => (i, match r with Some n => Raise (UserExn n) | None => Ok MONone end)
     | o :: ops' => match mstep fin i o with
                    | (i', Ok _) => go ops' i'
                    | bad => bad end
     end) body i.

Lemma run_body_nil fin r i :
  run_body fin r [] i = (i, match r with Some n => Raise (UserExn n) | None => Ok MONone end).
Proof. reflexivity. Qed.

Lemma run_body_cons fin r o ops i :
  run_body fin r (o :: ops) i =
  match mstep fin i o with (i', Ok _) => run_body fin r ops i' | bad => bad end.
Proof. reflexivity. Qed.

Lemma mstep_reset fin body r i :
  mstep fin i (MReset body r) =
  match run_body fin r body i with
  | (i', Ok _) => restore (active4 i) i'
  | (i', bad) => if fin then match restore (active4 i) i' with
                             | (i'', Ok _) => (i'', bad)
                             | other => other end
                 else (i', bad)
  end.
Proof. reflexivity. Qed.

Lemma reset_fst body r i :
  fst (mstep true i (MReset body r)) = fst (restore (active4 i) (fst (run_body true r body i))).
Proof.
  rewrite mstep_reset.
  destruct (run_body true r body i) as [i' [?|?|]]; simpl; try reflexivity;
    destruct (restore (active4 i) i') as [i'' [?|?|]]; reflexivity.
Qed.

Lemma In_insert_at {F} (x y : rule F) k (l : list (rule F)) : In y l -> In y (insert_at k x l).
Proof.
  revert k; induction l as [|z l IH]; intros [|k] H; simpl in *; try tauto.
  destruct H as [->|H]; [left; reflexivity | right; apply IH, H].
Qed.

Lemma step_names_mono {F} (r : ruler F) (o : op F) n :
  In n (all_names r) -> In n (all_names (fst (step r o))).
Proof.
  unfold all_names. intros H. destruct o; try exact H.
  - simpl. destruct (find (rules r) name); simpl; [|exact H].
    rewrite map_upd_nth; [exact H | reflexivity].
  - simpl. destruct (find (rules r) ref); simpl; [|exact H].
    apply in_map_iff in H. destruct H as [x [<- Hx]]. apply in_map. exact (In_insert_at _ _ n0 _ Hx).
  - simpl. destruct (find (rules r) ref); simpl; [|exact H].
    apply in_map_iff in H. destruct H as [x [<- Hx]]. apply in_map. exact (In_insert_at _ _ (S n0) _ Hx).
  - simpl. rewrite map_app. apply in_or_app; left; exact H.
  - rewrite (proj1 (toggle_frame r (OpEnable names ignoreInvalid) I)). exact H.
  - rewrite (proj1 (toggle_frame r (OpEnableOnly names ignoreInvalid) I)). exact H.
  - rewrite (proj1 (toggle_frame r (OpDisable names ignoreInvalid) I)). exact H.
  - simpl. pose proof (get_rules_rules r chain) as E. destruct (get_rules r chain); simpl in *. rewrite E; exact H.
Qed.

Definition names_le (a b : inst) : Prop :=
  forall c n, In n (all_names (get_chain a c)) -> In n (all_names (get_chain b c)).

Lemma names_le_refl a : names_le a a. Proof. intros c n H; exact H. Qed.
Lemma names_le_trans a b c : names_le a b -> names_le b c -> names_le a c.
Proof. intros H1 H2 k n H; apply H2, H1, H. Qed.

Lemma get_set_chain_same i c r : get_chain (set_chain i c r) c = r.
Proof. destruct c as [|[p|p|]|]; try reflexivity; destruct p; reflexivity. Qed.

(* the chain a number stands for: get_chain and set_chain send every number but 0, 1, 2 to inline2 *)
Definition norm (c : Z) : Z := match c with 0 => 0 | 1 => 1 | 2 => 2 | _ => 3 end.

Lemma get_chain_norm i c : get_chain i c = get_chain i (norm c).
Proof. destruct c as [|[p|p|]|]; try reflexivity; destruct p; reflexivity. Qed.

Lemma get_set_chain_other i c k r : norm c <> norm k -> get_chain (set_chain i c r) k = get_chain i k.
Proof.
  destruct c as [|[p|p|]|], k as [|[q|q|]|]; simpl; try congruence; try reflexivity;
    try (destruct p; simpl; try congruence; reflexivity);
    try (destruct q; simpl; try congruence; reflexivity);
    destruct p, q; simpl; try congruence; reflexivity.
Qed.

Lemma set_chain_names_le i c r :
  (forall n, In n (all_names (get_chain i c)) -> In n (all_names r)) -> names_le i (set_chain i c r).
Proof.
  intros H k n Hn. destruct (Z.eq_dec (norm c) (norm k)) as [E|N].
  - rewrite (get_chain_norm _ k), <- E, <- get_chain_norm, get_set_chain_same.
    apply H. rewrite (get_chain_norm _ c), E, <- get_chain_norm. exact Hn.
  - rewrite get_set_chain_other; assumption.
Qed.

Lemma get_chain_set_opts i o c : get_chain (set_opts i o) c = get_chain i c.
Proof. destruct c as [|[q|q|]|]; try reflexivity; destruct q; reflexivity. Qed.
Lemma get_chain_set_render i m c : get_chain (set_render i m) c = get_chain i c.
Proof. destruct c as [|[q|q|]|]; try reflexivity; destruct q; reflexivity. Qed.

Lemma mstep_names_le fin (o : mop) : forall i, names_le i (fst (mstep fin i o)).
Proof.
  intros i. apply (mstep_inv (names_le i)); [| | |apply names_le_refl].
  - intros x c op H. apply (names_le_trans _ _ _ H), set_chain_names_le.
    intros n. apply step_names_mono.
  - intros x y H c n Hn. rewrite get_chain_set_opts. apply H, Hn.
  - intros x m H c n Hn. rewrite get_chain_set_render. apply H, Hn.
Qed.

Lemma run_body_names_le fin r body : forall i, names_le i (fst (run_body fin r body i)).
Proof.
  induction body as [|o ops IH]; intros i; [apply names_le_refl|].
  rewrite run_body_cons. pose proof (mstep_names_le fin o i) as H.
  destruct (mstep fin i o) as [i' [?|?|]]; simpl in *; try exact H.
  eapply names_le_trans; [exact H | apply IH].
Qed.

Lemma raises_known all names :
  (forall n, In n names -> In n all) -> raises false all names = false.
Proof.
  intros H. unfold raises. simpl. apply Bool.negb_false_iff, forallb_forall.
  intros n Hn. apply mem_str_In, H, Hn.
Qed.

Lemma enable_only_known {F} (r : ruler F) names :
  NoDup (all_names r) -> (forall n, In n names -> In n (all_names r)) ->
  (exists l, snd (step r (OpEnableOnly names false)) = Ok (ONames l))
  /\ (forall n, In n (active_names (fst (step r (OpEnableOnly names false)))) <-> In n names).
Proof.
  intros ND K. pose proof (raises_known (all_names r) names K) as NR. repeat split.
  - simpl. set (r0 := mkRuler (map (set_enabled false) (rules r)) (cache r)).
    assert (A0 : all_names r0 = all_names r) by (unfold all_names, r0; simpl; rewrite map_map; reflexivity).
    rewrite (toggle_sets true names false r0); [| rewrite A0; exact ND]. simpl.
    rewrite A0, NR. eexists; reflexivity.
  - intros H. apply (enableOnly_set names false r n ND NR) in H. tauto.
  - intros H. apply (enableOnly_set names false r n ND NR). split; [exact H | apply K, H].
Qed.

Lemma restore_ok a b c d i la lb lc ld :
  snd (step (i_core i) (OpEnableOnly a false)) = Ok la ->
  snd (step (i_block i) (OpEnableOnly b false)) = Ok lb ->
  snd (step (i_inline i) (OpEnableOnly c false)) = Ok lc ->
  snd (step (i_inline2 i) (OpEnableOnly d false)) = Ok ld ->
  restore (MONames4 a b c d) i =
  (mkInst (i_opts i) (fst (step (i_core i) (OpEnableOnly a false)))
          (fst (step (i_block i) (OpEnableOnly b false)))
          (fst (step (i_inline i) (OpEnableOnly c false)))
          (fst (step (i_inline2 i) (OpEnableOnly d false))) (i_render i), Ok MONone).
Proof.
  intros Ea Eb Ec Ed. unfold restore, enable_only_chain. cbn [get_chain].
  destruct (step (i_core i) (OpEnableOnly a false)) as [r0 x0]. cbn [snd] in Ea. subst x0.
  cbn [get_chain set_chain i_block].
  destruct (step (i_block i) (OpEnableOnly b false)) as [r1 x1]. cbn [snd] in Eb. subst x1.
  cbn [get_chain set_chain i_inline].
  destruct (step (i_inline i) (OpEnableOnly c false)) as [r2 x2]. cbn [snd] in Ec. subst x2.
  cbn [get_chain set_chain i_inline2].
  destruct (step (i_inline2 i) (OpEnableOnly d false)) as [r3 x3]. cbn [snd] in Ed. subst x3.
  reflexivity.
Qed.

Theorem restore_spec a b c d i :
  (forall k, NoDup (all_names (get_chain i k))) ->
  (forall n, In n a -> In n (all_names (get_chain i 0))) ->
  (forall n, In n b -> In n (all_names (get_chain i 1))) ->
  (forall n, In n c -> In n (all_names (get_chain i 2))) ->
  (forall n, In n d -> In n (all_names (get_chain i 3))) ->
  let i' := fst (restore (MONames4 a b c d) i) in
  snd (restore (MONames4 a b c d) i) = Ok MONone
  /\ (forall n, In n (active_names (get_chain i' 0)) <-> In n a)
  /\ (forall n, In n (active_names (get_chain i' 1)) <-> In n b)
  /\ (forall n, In n (active_names (get_chain i' 2)) <-> In n c)
  /\ (forall n, In n (active_names (get_chain i' 3)) <-> In n d).
Proof.
  intros ND Ka Kb Kc Kd.
  destruct (enable_only_known (i_core i) a (ND 0) Ka) as [[la Ea] Aa].
  destruct (enable_only_known (i_block i) b (ND 1) Kb) as [[lb Eb] Ab].
  destruct (enable_only_known (i_inline i) c (ND 2) Kc) as [[lc Ec] Ac].
  destruct (enable_only_known (i_inline2 i) d (ND 3) Kd) as [[ld Ed] Ad].
  rewrite (restore_ok a b c d i _ _ _ _ Ea Eb Ec Ed). repeat split; try apply Aa; try apply Ab; try apply Ac;
    apply Ad.
Qed.

(* the exit of the block: the names of the snapshot are still registered after
   the body, so the restore succeeds and re-establishes the snapshot *)
Lemma reset_exit body r i :
  let i1 := fst (run_body true r body i) in
  (forall k, NoDup (all_names (get_chain i1 k))) ->
  snd (restore (active4 i) i1) = Ok MONone
  /\ forall k n, In n (active_names (get_chain (fst (restore (active4 i) i1)) k))
                 <-> In n (active_names (get_chain i k)).
Proof.
  intros i1 ND. pose proof (run_body_names_le true r body i) as LE. fold i1 in LE.
  unfold active4.
  destruct (restore_spec (active_names (i_core i)) (active_names (i_block i))
              (active_names (i_inline i)) (active_names (i_inline2 i)) i1 ND) as [E [A0 [A1 [A2 A3]]]];
    try (intros m Hm; first [apply (LE 0) | apply (LE 1) | apply (LE 2) | apply (LE 3)]; apply active_sub_all, Hm).
  split; [exact E|]. intros k n.
  rewrite (get_chain_norm _ k), (get_chain_norm i k).
  destruct k as [|[p|p|]|]; simpl norm; try apply A0; try apply A3; try apply A1;
    destruct p; simpl norm; try apply A3; try apply A2; apply A1.
Qed.

(* The statement of C14 for reset_rules: whatever the body does (any management
   calls, nested reset_rules blocks, raising at any point or not), on exit the
   active rule set of every chain is the one in force on entry.  Hypothesis:
   rule names stay unique per chain (duplicate names make enableOnly ambiguous). *)
Theorem reset_rules_restores body r i :
  let i1 := fst (run_body true r body i) in
  (forall k, NoDup (all_names (get_chain i1 k))) ->
  let i' := fst (mstep true i (MReset body r)) in
  forall k n, In n (active_names (get_chain i' k)) <-> In n (active_names (get_chain i k)).
Proof. intros i1 ND i'. subst i'. rewrite reset_fst. exact (proj2 (reset_exit body r i ND)). Qed.

Theorem reset_rules_result body r i :
  let i1 := fst (run_body true r body i) in
  (forall k, NoDup (all_names (get_chain i1 k))) ->
  snd (mstep true i (MReset body r)) =
  match snd (run_body true r body i) with Ok _ => Ok MONone | bad => bad end.
Proof.
  intros i1 ND. destruct (reset_exit body r i ND) as [E _]. fold i1 in E. subst i1.
  rewrite mstep_reset. destruct (run_body true r body i) as [j [?|?|]]; cbn [fst snd] in *;
    destruct (restore (active4 i) j) as [j' rr]; cbn [snd] in E; subst rr; reflexivity.
Qed.

(* the generator without try/finally (the code before the repair) leaks *)
Definition leak_inst : inst :=
  bare_inst [] [] [([101; 109], []); ([116; 120], [])] [].
Lemma reset_rules_leak_refuted :
  let i' := fst (mstep false leak_inst (MReset [MDisable [[101; 109]] false] (Some 3))) in
  active_names (i_inline i') = [[116; 120]] /\ active_names (i_inline leak_inst) = [[101; 109]; [116; 120]].
Proof. vm_compute. split; reflexivity. Qed.
