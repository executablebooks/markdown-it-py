(* C01, block parser: no exception.  For every source and every configuration with the paragraph rule
   and silent-capable terminator chains, ParserBlock.parse never raises: every table read is in
   range and every unguarded src[...] read hits a character.  The invariant RI says what the line
   tables promise (lengths, marks inside the source, a line feed at every end mark but the last, a
   non-blank at the logical line start of a non-empty line); it holds for fresh tables and is kept
   by every rule, through the block quote and list-item rewrites and their restores.  A second
   invariant, CI, bounds every sCount entry by the columns getLines counts over the line's blanks (it
   is what lets getLines keep the line feed of an html block's last line); TI of Lemmas/MapWhole.v
   is carried beside them, because where the cursor ends comes from the contract proved there.
   [nr m]: m does not raise; [nrq m Q]: and if it answers, its value satisfies Q. *)
From RecordUpdate Require Import RecordUpdate.
From MD Require Import Base.Py Base.Str Base.Regex Model.Utils Model.StateBlock Model.Block Lemmas.Phases
     Lemmas.StrLemmas Lemmas.BlockLemmas Lemmas.BlockEff Lemmas.MapLemmas Lemmas.ScanLemmas
     Lemmas.Verbatim Lemmas.MapWhole.
From Coq Require Import ZifyBool.

Definition nr {A} (m : res A) : Prop := forall e, m <> Raise e.

Lemma nr_ok {A} (v : A) : nr (Ok v). Proof. intros e H. discriminate H. Qed.
Lemma nr_oof {A} : nr (@OutOfFuel A). Proof. intros e H. discriminate H. Qed.
Lemma nr_bind {A B} (m : res A) (k : A -> res B) : nr m -> (forall x, m = Ok x -> nr (k x)) -> nr (bind m k).
Proof. intros Hm Hk e. destruct m as [x|e'|]; cbn [bind]; [apply Hk; reflexivity | intros _; apply (Hm e'); reflexivity | discriminate]. Qed.

Definition nrq {A} (m : res A) (Q : A -> Prop) : Prop := nr m /\ forall x, m = Ok x -> Q x.

Lemma nrq_ok {A} (v : A) (Q : A -> Prop) : Q v -> nrq (Ok v) Q.
Proof. intros H. split; [apply nr_ok|]. intros x E. injection E as <-. exact H. Qed.
Lemma nrq_oof {A} (Q : A -> Prop) : nrq OutOfFuel Q.
Proof. split; [apply nr_oof | discriminate]. Qed.
Lemma nrq_bind {A B} (m : res A) (k : A -> res B) (P : A -> Prop) (Q : B -> Prop) :
  nrq m P -> (forall x, m = Ok x -> P x -> nrq (k x) Q) -> nrq (bind m k) Q.
Proof.
  intros [Hm HP] Hk. destruct m as [x|e|]; cbn [bind]; [exact (Hk x eq_refl (HP x eq_refl)) | exfalso; exact (Hm e eq_refl) | apply nrq_oof].
Qed.
Lemma nrq_bind_nr {A B} (m : res A) (k : A -> res B) (Q : B -> Prop) :
  nr m -> (forall x, m = Ok x -> nrq (k x) Q) -> nrq (bind m k) Q.
Proof. intros Hm Hk. apply (nrq_bind m k (fun _ => True)); [split; [exact Hm | trivial] | intros x E _; exact (Hk x E)]. Qed.
Lemma nrq_weaken {A} (m : res A) (P Q : A -> Prop) : nrq m P -> (forall x, m = Ok x -> P x -> Q x) -> nrq m Q.
Proof. intros [Hm HP] H. split; [exact Hm|]. intros x E. exact (H x E (HP x E)). Qed.

Lemma nr_bindq {A B} (m : res A) (k : A -> res B) (P : A -> Prop) :
  nrq m P -> (forall x, m = Ok x -> P x -> nr (k x)) -> nr (bind m k).
Proof. intros [Hm HP] Hk. apply nr_bind; [exact Hm|]. intros x E. exact (Hk x E (HP x E)). Qed.

Lemma nr_py_idx_wrap (s : str) i : - len s <= i < len s -> nr (py_idx s i).
Proof.
  intros H e. unfold py_idx, get. cbv zeta.
  destruct (i <? 0) eqn:X.
  - assert (Y : (i + len s <? 0) = false) by lia. rewrite Y.
    destruct (nth_error s (Z.to_nat (i + len s))) eqn:E; [discriminate|]. apply nth_error_None in E. unfold len in *. lia.
  - rewrite X. destruct (nth_error s (Z.to_nat i)) eqn:E; [discriminate|]. apply nth_error_None in E. unfold len in *. lia.
Qed.
Lemma nr_py_idx s i : 0 <= i < len s -> nr (py_idx s i).
Proof. intros H. apply nr_py_idx_wrap. lia. Qed.
Lemma py_idx_char_at (s : str) p c : 0 <= p -> py_idx s p = Ok c -> char_at s p = Some c.
Proof. intros H E. rewrite char_at_nonneg by lia. destruct (py_idx_get _ _ _ H E) as [A _]. exact A. Qed.
Lemma tb_set_nr l i v : 0 <= i < len l -> nr (tb_set l i v).
Proof. intros H e. unfold tb_set. cbv zeta. assert (X : (i <? 0) = false) by lia. rewrite !X. assert (Y : (len l <=? i) = false) by lia. rewrite Y. cbn. discriminate. Qed.

(* [N] is the number of lines of the source, the lineMax of the fresh state.  The tables keep their N + 1 rows while a
   block quote lowers b_lineMax for the nested call, so the invariant is stated against N.  Row N is the sentinel and
   row N - 1 the last line, whose end mark may be the end of the source: only the rows up to N - 2 are sure to end
   before it, on a line feed *)
Definition row_ok (src : str) (N l b e t : Z) : Prop :=
  0 <= b /\ (0 <= t /\ b + t <= e) /\ 0 <= e <= len src
  /\ (l <= N - 2 -> e < len src)
  /\ (e < len src -> py_idx src e = Ok 10)
  /\ (b + t < e -> exists c, py_idx src (b + t) = Ok c /\ is_space c = false).

Definition RI (N : Z) (st : bstate) : Prop :=
  0 <= b_lineMax st <= N
  /\ len (b_bMarks st) = N + 1 /\ len (b_eMarks st) = N + 1 /\ len (b_tShift st) = N + 1
  /\ len (b_sCount st) = N + 1 /\ len (b_bsCount st) = N + 1
  /\ forall l b e t, 0 <= l <= N -> tb (b_bMarks st) l = Ok b -> tb (b_eMarks st) l = Ok e -> tb (b_tShift st) l = Ok t ->
       row_ok (b_src st) N l b e t.

Lemma RI_reads N st l : RI N st -> 0 <= l <= N ->
  exists b e t sc bs, tb (b_bMarks st) l = Ok b /\ tb (b_eMarks st) l = Ok e /\ tb (b_tShift st) l = Ok t
    /\ tb (b_sCount st) l = Ok sc /\ tb (b_bsCount st) l = Ok bs /\ row_ok (b_src st) N l b e t.
Proof.
  intros (LM & L1 & L2 & L3 & L4 & L5 & R) Hl.
  destruct (tb_in_range (b_bMarks st) l ltac:(lia)) as [b Eb]. destruct (tb_in_range (b_eMarks st) l ltac:(lia)) as [e Ee].
  destruct (tb_in_range (b_tShift st) l ltac:(lia)) as [t Et]. destruct (tb_in_range (b_sCount st) l ltac:(lia)) as [sc Es].
  destruct (tb_in_range (b_bsCount st) l ltac:(lia)) as [bs Ebs].
  exists b, e, t, sc, bs. repeat split; try assumption; try apply (R l b e t Hl Eb Ee Et).
Qed.
Lemma RI_lineMax N st : RI N st -> 0 <= b_lineMax st <= N.
Proof. intros H. apply H. Qed.

(* the row of line l under R : RI N st, by its five entries (Eb .. Ebs), with what RI says of it: B0 T0 E0 the bounds,
   I1 "ends before the source does", I3 "a line feed at the end mark", I2 "a non-blank at the logical start" *)
Ltac row R l :=
  pose proof (RI_lineMax _ _ R) as LMN;
  destruct (RI_reads _ _ l R ltac:(lia)) as (b & e & t & sc & bs & Eb & Ee & Et & Es & Ebs & RO);
  pose proof RO as (B0 & T0 & E0 & I1 & I3 & I2).

(* MapWhole.stb, under the name the statements of C01 and C07 use *)
Definition tabs_eq (st st' : bstate) : Prop :=
  b_src st' = b_src st /\ b_bMarks st' = b_bMarks st /\ b_eMarks st' = b_eMarks st /\ b_tShift st' = b_tShift st
  /\ b_sCount st' = b_sCount st /\ b_bsCount st' = b_bsCount st /\ b_lineMax st' = b_lineMax st.
Lemma tabs_eq_refl st : tabs_eq st st. Proof. exact (stb_refl st). Qed.
Lemma tabs_eq_RI N st st' : tabs_eq st st' -> RI N st -> RI N st'.
Proof. intros (A1 & A2 & A3 & A4 & A5 & A6 & A7). unfold RI. rewrite A1, A2, A3, A4, A5, A6, A7. exact (fun x => x). Qed.
Lemma tabs_eq_trans a b c : tabs_eq a b -> tabs_eq b c -> tabs_eq a c.
Proof. exact (stb_trans a b c). Qed.
Lemma tabs_eq_bpush st st' ty tag n f : tabs_eq st st' -> tabs_eq st (bpush st' ty tag n f).
Proof. intros H. exact H. Qed.
Lemma tabs_eq_lineMax st st' : tabs_eq st st' -> b_lineMax st' = b_lineMax st.
Proof. intros (_ & _ & _ & _ & _ & _ & A). exact A. Qed.
Lemma fr_tabs_eq st st' : fr st st' -> tabs_eq st st'.
Proof. exact (fr_stb st st'). Qed.
Lemma leaf_c_tabs st sl el silent b st' : leaf_c st sl el silent b st' -> tabs_eq st st'.
Proof.
  unfold leaf_c. destruct (b && negb silent); [|intros ->; apply tabs_eq_refl].
  intros ((lvl & toks & l & ->) & _). repeat split.
Qed.
Lemma r_hr_tabs cfg st sl el silent b st' : r_hr cfg st sl el silent = Ok (b, st') -> tabs_eq st st'.
Proof. intros H. exact (leaf_c_tabs _ _ _ _ _ _ (r_hr_leaf cfg _ _ _ _ _ _ H)). Qed.
Lemma r_code_tabs cfg st sl el silent b st' : r_code cfg st sl el silent = Ok (b, st') -> tabs_eq st st'.
Proof. intros H. exact (leaf_c_tabs _ sl el false _ _ (r_code_leaf cfg st sl el b st' H)). Qed.
Lemma r_fence_tabs cfg st sl el silent b st' : r_fence cfg st sl el silent = Ok (b, st') -> tabs_eq st st'.
Proof. intros H. exact (leaf_c_tabs _ _ _ _ _ _ (r_fence_leaf cfg _ _ _ _ _ _ H)). Qed.
Lemma r_heading_tabs cfg st sl el silent b st' : r_heading cfg st sl el silent = Ok (b, st') -> tabs_eq st st'.
Proof. intros H. exact (leaf_c_tabs _ _ _ _ _ _ (r_heading_leaf cfg _ _ _ _ _ _ H)). Qed.
Lemma r_html_block_tabs cfg st sl el silent b st' : r_html_block cfg st sl el silent = Ok (b, st') -> tabs_eq st st'.
Proof. intros H. exact (leaf_c_tabs _ _ _ _ _ _ (r_html_block_leaf cfg _ _ _ _ _ _ H)). Qed.

Lemma nrq_same {A} st (r : A) : nrq (Ok (r, st)) (fun r => tabs_eq st (snd r)).
Proof. apply nrq_ok. apply tabs_eq_refl. Qed.
Lemma nrq_tabs {A} st st1 (m : res A) (f : A -> bstate) :
  tabs_eq st st1 -> nrq m (fun r => tabs_eq st1 (f r)) -> nrq m (fun r => tabs_eq st (f r)).
Proof. intros T H. apply (nrq_weaken _ _ _ H). intros r _ H1. exact (tabs_eq_trans _ _ _ T H1). Qed.

Lemma line_start_nr N st l : RI N st -> 0 <= l <= N -> nr (line_start st l).
Proof.
  intros R Hl. row R l.
  unfold line_start. rewrite Eb, Et. cbn [bind]. apply nr_ok.
Qed.
Lemma is_empty_nr N st l : RI N st -> 0 <= l <= N -> nr (is_empty st l).
Proof.
  intros R Hl. row R l.
  unfold is_empty, line_start. rewrite Eb, Et, Ee. apply nr_ok.
Qed.
Lemma is_code_block_nr N en st l : RI N st -> 0 <= l <= N -> nr (is_code_block en st l).
Proof.
  intros R Hl. row R l.
  unfold is_code_block. rewrite Es. cbn [bind]. apply nr_ok.
Qed.

(* indentation columns as getLines counts them *)
Fixpoint gcol (fuel : nat) (src : str) (first p0 li bs : Z) : Z :=
  match fuel with
  | O => li
  | S f =>
      if first <? p0 then
        match char_at src first with
        | Some ch => gcol f src (first + 1) p0 (if is_space ch then (if ch =? 9 then li + (4 - (li + bs) mod 4) else li + 1) else li + 1) bs
        | None => li
        end
      else li
  end.
Definition gcols (src : str) (first p0 li bs : Z) : Z := gcol (S (Z.to_nat (p0 - first))) src first p0 li bs.

Lemma gcol_fuel : forall f1 f2 src first p0 li bs, (Z.to_nat (p0 - first) < f1)%nat -> (Z.to_nat (p0 - first) < f2)%nat ->
  gcol f1 src first p0 li bs = gcol f2 src first p0 li bs.
Proof.
  induction f1 as [|f1 IH]; intros f2 src first p0 li bs H1 H2; [lia|]. destruct f2 as [|f2]; [lia|]. cbn [gcol].
  destruct (first <? p0) eqn:E; [|reflexivity]. destruct (char_at src first); [|reflexivity]. apply IH; lia.
Qed.

Lemma gcols_step src first p0 li bs : first < p0 ->
  gcols src first p0 li bs = match char_at src first with
                             | Some ch => gcols src (first + 1) p0 (if is_space ch then (if ch =? 9 then li + (4 - (li + bs) mod 4) else li + 1) else li + 1) bs
                             | None => li end.
Proof.
  intros H. unfold gcols. replace (S (Z.to_nat (p0 - first))) with (S (S (Z.to_nat (p0 - (first + 1))))) by lia.
  cbn [gcol]. assert (E : (first <? p0) = true) by lia. rewrite E. destruct (char_at src first); reflexivity.
Qed.
Lemma gcols_end src first p0 li bs : p0 <= first -> gcols src first p0 li bs = li.
Proof. intros H. unfold gcols. cbn [gcol]. assert (E : (first <? p0) = false) by lia. rewrite E. reflexivity. Qed.

Lemma tabstop_mono bs x y : x <= y -> x + (4 - (x + bs) mod 4) <= y + (4 - (y + bs) mod 4).
Proof.
  intros H. pose proof (Z.mod_pos_bound (x + bs) 4 ltac:(lia)). pose proof (Z.mod_pos_bound (y + bs) 4 ltac:(lia)).
  pose proof (Z.div_mod (x + bs) 4 ltac:(lia)). pose proof (Z.div_mod (y + bs) 4 ltac:(lia)).
  assert ((x + bs) / 4 <= (y + bs) / 4) by (apply Z.div_le_mono; lia). lia.
Qed.

Lemma gcols_mono src bs p0 : forall (k : nat) first li li', Z.to_nat (p0 - first) = k -> li <= li' ->
  gcols src first p0 li bs <= gcols src first p0 li' bs.
Proof.
  induction k as [|k IH]; intros first li li' Hk Hl.
  - rewrite !gcols_end by lia. exact Hl.
  - rewrite !gcols_step by lia. destruct (char_at src first) as [ch|]; [|exact Hl].
    apply IH; [lia|]. destruct (is_space ch); [|lia]. destruct (ch =? 9); [apply tabstop_mono; exact Hl | lia].
Qed.
Lemma gcols_ge src bs p0 : forall (k : nat) first li, Z.to_nat (p0 - first) = k -> li <= gcols src first p0 li bs.
Proof.
  induction k as [|k IH]; intros first li Hk.
  - rewrite gcols_end by lia. lia.
  - rewrite gcols_step by lia. destruct (char_at src first) as [ch|]; [|lia].
    eapply Z.le_trans; [|apply IH; lia]. destruct (is_space ch); [|lia]. destruct (ch =? 9); [|lia].
    pose proof (Z.mod_pos_bound (li + bs) 4 ltac:(lia)). lia.
Qed.

Lemma gcols_split src bs p0 mid : forall (k : nat) first li, Z.to_nat (mid - first) = k -> 0 <= first -> first <= mid -> mid <= p0 ->
  gcols src first p0 li bs = gcols src mid p0 (gcols src first mid li bs) bs.
Proof.
  induction k as [|k IH]; intros first li Hk H0 H1 H2.
  - assert (first = mid) by lia. subst first. rewrite (gcols_end src mid mid) by lia. reflexivity.
  - rewrite (gcols_step src first p0) by lia. rewrite (gcols_step src first mid) by lia.
    destruct (char_at src first) as [ch|] eqn:E.
    + apply IH; lia.
    + (* beyond the end of the source nothing is counted on either side *)
      rewrite char_at_nonneg in E by lia. apply nth_error_None in E.
      assert (G : forall (j : nat) f l, Z.to_nat (p0 - f) = j -> first <= f -> gcols src f p0 l bs = l).
      { induction j as [|j IHj]; intros f l Hj Hf; [apply gcols_end; lia|]. rewrite gcols_step by lia.
        rewrite char_at_nonneg by lia.
        assert (X : nth_error src (Z.to_nat f) = None) by (apply nth_error_None; lia). rewrite X. reflexivity. }
      symmetry. eapply G; [reflexivity | lia].
Qed.

Lemma gcols_chars src bs p0 : forall (k : nat) first li, Z.to_nat (p0 - first) = k -> 0 <= first <= p0 -> p0 <= len src ->
  li + (p0 - first) <= gcols src first p0 li bs.
Proof.
  induction k as [|k IH]; intros first li Hk H0 HL.
  - rewrite gcols_end by lia. lia.
  - rewrite gcols_step by lia.
    assert (E : exists ch, char_at src first = Some ch).
    { rewrite char_at_nonneg by lia. destruct (nth_error src (Z.to_nat first)) eqn:X; [eexists; reflexivity|]. apply nth_error_None in X. unfold len in HL. lia. }
    destruct E as [ch E]. rewrite E.
    eapply Z.le_trans; [|apply IH; lia]. destruct (is_space ch); [|lia]. destruct (ch =? 9); [|lia].
    pose proof (Z.mod_pos_bound (li + bs) 4 ltac:(lia)). lia.
Qed.

Lemma gl_scan_nr_lim : forall fuel src first last b li indent ts bs,
  0 <= first -> last <= len src -> nr (gl_scan fuel src first last b li indent ts bs).
Proof.
  induction fuel as [|f IH]; intros src first last b li indent ts bs H0 HL; cbn [gl_scan]; [apply nr_ok|].
  destruct ((first <? last) && (li <? indent)) eqn:E; [|apply nr_ok].
  apply nr_bind; [apply nr_py_idx; lia|]. intros ch Ec.
  destruct (is_space ch); [apply IH; lia|]. destruct (first - b <? ts); [apply IH; lia | apply nr_ok].
Qed.

(* the scan does not pass the logical line start b + ts: a non-blank sits there, or the columns counted
   up to there reach the indent *)
Lemma gl_scan_nr_start : forall fuel src first last b li indent ts bs,
  0 <= first -> b <= first -> first <= b + ts <= len src ->
  (exists c0, py_idx src (b + ts) = Ok c0 /\ is_space c0 = false) \/ indent <= gcols src first (b + ts) li bs ->
  nr (gl_scan fuel src first last b li indent ts bs).
Proof.
  induction fuel as [|f IH]; intros src first last b li indent ts bs H0 HB HL HS; cbn [gl_scan]; [apply nr_ok|].
  destruct ((first <? last) && (li <? indent)) eqn:E; [|apply nr_ok].
  destruct (Z.eq_dec first (b + ts)) as [->|Ne].
  - destruct HS as [(c0 & E0 & S0)|HC]; [|rewrite gcols_end in HC by lia; lia].
    rewrite E0. cbn [bind]. rewrite S0. replace (b + ts - b <? ts) with false by lia. apply nr_ok.
  - apply nr_bind; [apply nr_py_idx; lia|]. intros ch Ec.
    rewrite gcols_step, (py_idx_char_at _ first _ ltac:(lia) Ec) in HS by lia.
    assert (X : (first - b <? ts) = true) by lia. rewrite X.
    destruct (is_space ch); apply IH; try lia; exact HS.
Qed.
Lemma gl_scan_nr_cols : forall fuel src first last b li indent ts bs,
  0 <= first -> b <= first <= b + ts -> b + ts <= len src -> indent <= gcols src first (b + ts) li bs ->
  nr (gl_scan fuel src first last b li indent ts bs).
Proof. intros fuel src first last b li indent ts bs H0 HB HL HC. apply gl_scan_nr_start; [lia | lia | lia | right; exact HC]. Qed.
Lemma gl_scan_nr_stop : forall fuel src first last b li indent ts bs c0,
  0 <= first -> b <= first <= b + ts -> py_idx src (b + ts) = Ok c0 -> is_space c0 = false -> 0 <= b ->
  nr (gl_scan fuel src first last b li indent ts bs).
Proof.
  intros fuel src first last b li indent ts bs c0 H0 HB E0 S0 _. destruct (py_idx_get src (b + ts) c0 ltac:(lia) E0) as [_ L].
  apply gl_scan_nr_start; [lia | lia | lia | left; exists c0; split; assumption].
Qed.

(* a line may be cut with its line feed kept if the line feed exists or the line is not empty *)
Definition keep_ok (st : bstate) (l indent : Z) : Prop :=
  forall b e t bs, tb (b_bMarks st) l = Ok b -> tb (b_eMarks st) l = Ok e -> tb (b_tShift st) l = Ok t -> tb (b_bsCount st) l = Ok bs ->
    e < len (b_src st) \/ b + t < e \/ indent <= gcols (b_src st) b (b + t) 0 bs.

(* the recorded indentation never exceeds the columns getLines counts up to the logical line start *)
Definition CI (st : bstate) : Prop :=
  forall l b t sc bs, 0 <= l < b_lineMax st -> tb (b_bMarks st) l = Ok b -> tb (b_tShift st) l = Ok t -> tb (b_sCount st) l = Ok sc -> tb (b_bsCount st) l = Ok bs ->
    sc <= gcols (b_src st) b (b + t) 0 bs.

Lemma keep_ok_intro st l indent b e t bs :
  tb (b_bMarks st) l = Ok b -> tb (b_eMarks st) l = Ok e -> tb (b_tShift st) l = Ok t -> tb (b_bsCount st) l = Ok bs ->
  e < len (b_src st) \/ b + t < e \/ indent <= gcols (b_src st) b (b + t) 0 bs -> keep_ok st l indent.
Proof.
  intros Eb Ee Et Ebs H b' e' t' bs' Eb' Ee' Et' Ebs'. rewrite Eb in Eb'. rewrite Ee in Ee'. rewrite Et in Et'. rewrite Ebs in Ebs'.
  injection Eb' as <-. injection Ee' as <-. injection Et' as <-. injection Ebs' as <-. exact H.
Qed.

Lemma get_lines_loop_nr N st (R : RI N st) : forall fuel line endl indent keep,
  0 <= line -> endl <= N -> (keep = true -> line < endl -> keep_ok st (endl - 1) indent) ->
  nr (get_lines_loop fuel st line endl indent keep).
Proof.
  induction fuel as [|f IH]; intros line endl indent keep H0 HE HK; cbn [get_lines_loop]; [apply nr_ok|].
  destruct (negb (line <? endl)) eqn:E; [apply nr_ok|].
  row R line.
  rewrite Eb, Ee, Et, Ebs. cbn [bind].
  apply nr_bind.
  - destruct ((line + 1 <? endl) || keep) eqn:K.
    + (* the line feed is kept *)
      assert (Safe : e < len (b_src st) \/ b + t < e \/ indent <= gcols (b_src st) b (b + t) 0 bs).
      { destruct (line + 1 <? endl) eqn:X; [left; apply I1; lia|]. cbn [orb] in K. subst keep.
        assert (line = endl - 1) by lia. subst line. exact (HK eq_refl ltac:(lia) b e t bs Eb Ee Et Ebs). }
      destruct Safe as [S|[S|S]]; [apply gl_scan_nr_lim; lia | |]; (apply gl_scan_nr_start; [lia | lia | lia|]); [left; exact (I2 S) | right; exact S].
    + apply gl_scan_nr_lim; lia.
  - intros [first li] _. apply nr_bind; [|intros rest _; apply nr_ok].
    apply IH; [lia | exact HE|]. intros Hk Hl. apply HK; [exact Hk | lia].
Qed.

Lemma get_lines_nr N st (R : RI N st) a b indent keep :
  0 <= a -> b <= N -> (keep = true -> a < b -> keep_ok st (b - 1) indent) -> nr (get_lines st a b indent keep).
Proof. intros H0 HE HK. unfold get_lines. destruct (b <=? a); [apply nr_ok|]. apply (get_lines_loop_nr N st R); assumption. Qed.

Lemma tb_set_back T i v T1 x T2 : tb_set T i v = Ok T1 -> tb T i = Ok x -> tb_set T1 i x = Ok T2 -> 0 <= i -> T2 = T.
Proof.
  intros A B C Hi. destruct (tb_set_spec _ _ _ _ A Hi) as (V1 & O1 & L1). destruct (tb_set_spec _ _ _ _ C Hi) as (V2 & O2 & L2).
  apply tb_ext; [lia|]. intros j Hj. destruct (Z.eq_dec j i) as [->|N]; [rewrite V2; symmetry; exact B|]. rewrite O2 by lia. apply O1; lia.
Qed.

Lemma tb_set_nr_read l i x v : tb l i = Ok x -> 0 <= i -> nr (tb_set l i v).
Proof.
  intros E Hi. apply tb_set_nr. rewrite tb_nonneg in E by lia. destruct (nth_error l (Z.to_nat i)) eqn:X; [|discriminate E].
  assert (Z.to_nat i < length l)%nat by (apply nth_error_Some; congruence). unfold len. lia.
Qed.

Lemma before_end src e p c : (e < len src -> py_idx src e = Ok 10) -> 0 <= p <= e -> char_at src p = Some c -> c <> 10 -> p < e.
Proof.
  intros I3 Hp Ec Hc. destruct (Z.eq_dec p e) as [->|]; [|lia]. exfalso.
  rewrite char_at_nonneg in Ec by lia.
  assert (LL : e < len src) by (assert (Z.to_nat e < length src)%nat by (apply nth_error_Some; congruence); unfold len; lia).
  destruct (py_idx_get _ e _ ltac:(lia) (I3 LL)) as [X _]. congruence.
Qed.

Section Rules.
Context (cfg : bcfg) (rf cf : str -> str).

(* what a rule call needs in order not to raise: well-formed tables and a line range inside them (MapWhole.pre, for
   the maps, asks for TI and the cursor instead) *)
Definition pre2 (N : Z) (st : bstate) (sl el : Z) : Prop := RI N st /\ 0 <= sl /\ sl < el /\ el <= b_lineMax st.

Lemma hr_scan_nr : forall fuel src pos maximum marker cnt, 0 <= pos -> maximum <= len src -> nr (hr_scan fuel src pos maximum marker cnt).
Proof.
  induction fuel as [|f IH]; intros src pos maximum marker cnt H0 HM; cbn [hr_scan]; [apply nr_ok|].
  destruct (negb (pos <? maximum)) eqn:E; [apply nr_ok|].
  apply nr_bind; [apply nr_py_idx; lia|]. intros ch _.
  destruct (negb (ch =? marker) && negb (is_space ch)); [apply nr_ok | apply IH; lia].
Qed.

Lemma r_hr_nr N st sl el silent : pre2 N st sl el -> nr (r_hr cfg st sl el silent).
Proof.
  intros (R & S0 & S1 & S2). row R sl.
  unfold r_hr, line_start, code_block_at, is_code_block. rewrite Eb, Et, Ee, Es. cbn [bind].
  destruct (c_code cfg && (4 <=? sc - b_blkIndent st)); [apply nr_ok|].
  destruct (char_at (b_src st) (b + t)) as [marker|]; [|apply nr_ok].
  destruct (negb ((marker =? 42) || (marker =? 45) || (marker =? 95))); [apply nr_ok|].
  apply nr_bind; [apply hr_scan_nr; lia|]. intros r _. destruct r as [cnt|]; [|apply nr_ok].
  destruct (cnt <? 3); [apply nr_ok|]. destruct silent; apply nr_ok.
Qed.

Lemma code_scan_nr N st (R : RI N st) : forall fuel nl el last, 0 <= nl -> el <= N -> nr (code_scan cfg fuel st nl el last).
Proof.
  induction fuel as [|f IH]; intros nl el last H0 HE; cbn [code_scan]; [apply nr_ok|].
  destruct (negb (nl <? el)) eqn:E; [apply nr_ok|].
  apply nr_bind; [apply (is_empty_nr N); [exact R | lia]|]. intros e _.
  destruct e; [apply IH; lia|].
  apply nr_bind; [apply (is_code_block_nr N); [exact R | lia]|]. intros c _.
  destruct c; [apply IH; lia | apply nr_ok].
Qed.

Lemma r_code_nr N st sl el silent : pre2 N st sl el -> nr (r_code cfg st sl el silent).
Proof.
  intros (R & S0 & S1 & S2). pose proof (RI_lineMax _ _ R) as LMN.
  unfold r_code.
  apply nr_bind; [apply (is_code_block_nr N); [exact R | lia]|]. intros c _.
  destruct (negb c); [apply nr_ok|].
  apply nr_bind; [apply (code_scan_nr N st R); lia|]. intros last CS.
  apply code_scan_bounds in CS; [|lia]. destruct CS as [C1 C2]. specialize (C2 ltac:(lia)).
  apply nr_bind; [|intros content _; apply nr_ok].
  rewrite get_lines_line. apply (get_lines_nr N st R); [lia | lia | discriminate].
Qed.

Lemma fence_scan_r N st (R : RI N st) : forall fuel nl el marker flen, 0 <= nl -> el <= N ->
  nrq (fence_scan cfg fuel st nl el marker flen) (fun r => nl < fst r - 1 -> forall indent, keep_ok st (fst r - 1) indent).
Proof.
  induction fuel as [|f IH]; intros nl el marker flen H0 HE; cbn [fence_scan]; [apply nrq_ok; cbn [fst]; lia|]. cbv zeta.
  destruct (el <=? nl + 1) eqn:E; [apply nrq_ok; cbn [fst]; lia|].
  row R (nl + 1).
  unfold line_start, code_block_at, is_code_block. rewrite Eb, Et, Ee, Es. cbn [bind].
  destruct ((b + t <? e) && (sc <? b_blkIndent st)); [apply nrq_ok; cbn [fst]; lia|].
  destruct (char_at (b_src st) (b + t)) as [c|] eqn:Ec; [|apply nrq_ok; cbn [fst]; lia].
  assert (KS : forall indent, keep_ok st (nl + 1) indent).
  { intros indent. apply (keep_ok_intro st _ indent b e t bs Eb Ee Et Ebs).
    destruct (Z_lt_le_dec (b + t) e) as [Lt|Ge]; [right; left; exact Lt|]. left.
    rewrite char_at_nonneg in Ec by lia.
    assert (Z.to_nat (b + t) < length (b_src st))%nat by (apply nth_error_Some; congruence). unfold len. lia. }
  assert (G : nrq (fence_scan cfg f st (nl + 1) el marker flen) (fun r => nl < fst r - 1 -> forall indent, keep_ok st (fst r - 1) indent)).
  { apply (nrq_weaken _ _ _ (IH (nl + 1) el marker flen ltac:(lia) HE)). intros [r h] _ K Hr. cbn [fst] in *.
    destruct (Z.eq_dec (r - 1) (nl + 1)) as [->|Ne]; [exact KS | apply K; lia]. }
  destruct (negb (c =? marker)); [exact G|].
  destruct (c_code cfg && (4 <=? sc - b_blkIndent st)); [exact G|].
  destruct (skip_chars (b_src st) (b + t) marker - (b + t) <? flen); [exact G|].
  destruct (skip_spaces (b_src st) (skip_chars (b_src st) (b + t) marker) <? e); [exact G|].
  apply nrq_ok. cbn [fst]. lia.
Qed.

Lemma r_fence_nr N st sl el silent : pre2 N st sl el -> nr (r_fence cfg st sl el silent).
Proof.
  intros (R & S0 & S1 & S2). row R sl.
  unfold r_fence, line_start, code_block_at, is_code_block. rewrite Eb, Et, Ee, Es. cbn [bind].
  destruct (c_code cfg && (4 <=? sc - b_blkIndent st)); [apply nr_ok|].
  destruct (e <? b + t + 3) eqn:E3; [apply nr_ok|].
  apply nr_bind; [apply nr_py_idx; lia|]. intros marker _.
  destruct (negb ((marker =? 126) || (marker =? 96))); [apply nr_ok|]. cbv zeta.
  destruct (skip_chars (b_src st) (b + t) marker - (b + t) <? 3); [apply nr_ok|].
  destruct ((marker =? 96) && mem_z 96 (slice (b_src st) (skip_chars (b_src st) (b + t) marker) e)); [apply nr_ok|].
  destruct silent; [apply nr_ok|].
  apply nr_bind; [apply (fence_scan_r N st R); lia|]. intros [nl have] FS.
  cbn [bind].
  pose proof (fence_scan_bounds cfg _ _ _ _ _ _ _ _ FS) as (F0 & F1 & F2 & F3). specialize (F2 S1).
  apply nr_bind; [|intros content _; apply nr_ok].
  rewrite get_lines_line. apply (get_lines_nr N st R); [lia | lia|].
  intros _ Hlt. refine (proj2 (fence_scan_r N st R _ _ _ _ _ _ _) _ FS _ _); cbn [fst]; lia.
Qed.

Lemma skip_back_spec : forall fuel p src pos minimum r, skip_back fuel p src pos minimum = Ok r ->
  (minimum <= pos -> minimum <= r <= pos) /\ (pos < minimum -> r = pos).
Proof.
  induction fuel as [|f IH]; intros p src pos minimum r H; cbn [skip_back] in H; [rfinish H; lia|].
  destruct (pos <=? minimum) eqn:E; [rfinish H; lia|].
  rstep H. destruct (p x); [apply IH in H; lia | rfinish H; lia].
Qed.
Lemma skip_back_nr : forall fuel p src pos minimum, 0 <= minimum -> pos <= len src -> nr (skip_back fuel p src pos minimum).
Proof.
  induction fuel as [|f IH]; intros p src pos minimum H0 HL; cbn [skip_back]; [apply nr_ok|].
  destruct (pos <=? minimum) eqn:E; [apply nr_ok|].
  apply nr_bind; [apply nr_py_idx; lia|]. intros c _. destruct (p c); [apply IH; lia | apply nr_ok].
Qed.

Lemma r_heading_nr N st sl el silent : pre2 N st sl el -> nr (r_heading cfg st sl el silent).
Proof.
  intros (R & S0 & S1 & S2). row R sl.
  unfold r_heading, line_start, code_block_at, is_code_block. rewrite Eb, Et, Ee, Es. cbn [bind].
  destruct (c_code cfg && (4 <=? sc - b_blkIndent st)); [apply nr_ok|].
  destruct (e <=? b + t) eqn:EP; [apply nr_ok|].
  apply nr_bind; [apply nr_py_idx; lia|]. intros ch _.
  destruct (negb (ch =? 35)); [apply nr_ok|].
  destruct (heading_level 8 (b_src st) (b + t + 1) e 1) as [p level] eqn:HL.
  apply heading_level_spec in HL. destruct HL as (A & B & _).
  destruct ((6 <? level) || ((p <? e) && negb (is_space_at (b_src st) p))); [apply nr_ok|].
  destruct silent; [apply nr_ok|].
  unfold skip_spaces_back, skip_chars_back.
  apply nr_bind; [apply skip_back_nr; lia|]. intros m1 M1. apply skip_back_spec in M1.
  apply nr_bind; [apply skip_back_nr; lia|]. intros tmp M2. apply skip_back_spec in M2.
  apply nr_bind; [|intros m2 _; apply nr_ok].
  destruct (p <? tmp) eqn:PT; [|apply nr_ok].
  apply nr_bind; [apply nr_py_idx; lia|]. intros c _. apply nr_ok.
Qed.

(* the body of an html block: no read out of range, and the last line taken in passed the indentation test,
   so its blanks cover the block indent *)
Lemma html_scan_r N st (R : RI N st) (C : CI st) : forall fuel closer nl el, 0 <= nl -> el <= b_lineMax st ->
  nrq (html_scan fuel st closer nl el) (fun r => nl < r -> keep_ok st (r - 1) (b_blkIndent st)).
Proof.
  induction fuel as [|f IH]; intros closer nl el H0 HE; cbn [html_scan]; [apply nrq_ok; lia|].
  destruct (negb (nl <? el)) eqn:E; [apply nrq_ok; lia|].
  row R nl.
  unfold line_start. rewrite Es. cbn [bind]. destruct (sc <? b_blkIndent st) eqn:SB; [apply nrq_ok; lia|].
  rewrite Eb, Et, Ee. cbn [bind]. cbv zeta.
  assert (KS : keep_ok st nl (b_blkIndent st)).
  { apply (keep_ok_intro st _ _ b e t bs Eb Ee Et Ebs). right. right. pose proof (C nl b t sc bs ltac:(lia) Eb Et Es Ebs). lia. }
  destruct (test closer (slice (b_src st) (b + t) e)).
  - apply nrq_ok. intros Hr. destruct (negb (len (slice (b_src st) (b + t) e) =? 0)); [|lia]. replace (nl + 1 - 1) with nl by lia. exact KS.
  - apply (nrq_weaken _ _ _ (IH closer (nl + 1) el ltac:(lia) HE)). intros r _ K Hr.
    destruct (Z.eq_dec r (nl + 1)) as [->|Ne]; [replace (nl + 1 - 1) with nl by lia; exact KS | apply K; lia].
Qed.

Lemma r_html_block_nr N st sl el silent : (silent = false -> CI st) -> pre2 N st sl el -> nr (r_html_block cfg st sl el silent).
Proof.
  intros HC (R & S0 & S1 & S2). row R sl.
  unfold r_html_block, line_start, code_block_at, is_code_block. rewrite Eb, Et, Ee, Es. cbn [bind].
  destruct (c_code cfg && (4 <=? sc - b_blkIndent st)); [apply nr_ok|].
  destruct (negb (c_html cfg)); [apply nr_ok|].
  destruct (e <=? b + t) eqn:EP; [apply nr_ok|].
  apply nr_bind; [apply nr_py_idx; lia|]. intros c _. destruct (negb (c =? 60)); [apply nr_ok|]. cbv zeta.
  match goal with |- nr (match ?X with Some _ => _ | None => _ end) => destruct X as [[[opener closer] can]|] end; [|apply nr_ok].
  destruct silent; [apply nr_ok|]. specialize (HC eq_refl).
  assert (KSL : keep_ok st sl (b_blkIndent st)).
  { apply (keep_ok_intro st _ _ b e t bs Eb Ee Et Ebs). right. left. lia. }
  match goal with |- nr (bind ?m _) => assert (NL : nrq m (fun nl => sl + 1 <= nl <= el /\ keep_ok st (nl - 1) (b_blkIndent st))) end.
  { destruct (test closer (slice (b_src st) (b + t) e)).
    - apply nrq_ok. replace (sl + 1 - 1) with sl by lia. split; [lia | exact KSL].
    - apply (nrq_weaken _ _ _ (html_scan_r N st R HC _ closer (sl + 1) el ltac:(lia) ltac:(lia))). intros nl H K.
      apply html_scan_bounds in H. split; [lia|].
      destruct (Z.eq_dec nl (sl + 1)) as [->|Ne]; [replace (sl + 1 - 1) with sl by lia; exact KSL | apply K; lia]. }
  apply nr_bind; [apply NL|]. intros nl H. destruct (proj2 NL nl H) as [B KS].
  apply nr_bind; [|intros content _; apply nr_ok].
  rewrite get_lines_line. change (b_blkIndent (st_line st nl)) with (b_blkIndent st).
  apply (get_lines_nr N st R); [lia | lia | intros _ _; exact KS].
Qed.

Lemma bq_blanks_r : forall fuel src pos mx off bs adj, 0 <= pos <= mx -> mx <= len src -> (Z.to_nat (mx - pos) < fuel)%nat ->
  nrq (bq_blanks fuel src pos mx off bs adj)
      (fun r => pos <= fst r <= mx /\ (fst r < mx -> exists c, py_idx src (fst r) = Ok c /\ is_space c = false)).
Proof.
  induction fuel as [|f IH]; intros src pos mx off bs adj H0 HM HF; [lia|]. cbn [bq_blanks].
  destruct (negb (pos <? mx)) eqn:E; [apply nrq_ok; cbn [fst]; split; lia|].
  apply nrq_bind_nr; [apply nr_py_idx; lia|]. intros ch Ec.
  destruct (is_space ch) eqn:Sp.
  - apply (nrq_weaken _ _ _ (IH src (pos + 1) mx _ bs adj ltac:(lia) HM ltac:(lia))). intros r _ (A & B). split; [lia | exact B].
  - apply nrq_ok. cbn [fst]. split; [lia|]. intros _. exists ch. split; assumption.
Qed.

(* the blank scans count columns as getLines does.  [K] is the column the scan's own counter starts from (behind the
   marker; getLines counts the same blanks from 0): the quote passes its [initial], the list marker 0 *)
Lemma bq_blanks_cols K : forall fuel src pos mx offset bs adj p2 o2 li bs',
  bq_blanks fuel src pos mx offset bs adj = Ok (p2, o2) -> 0 <= pos ->
  bs' = bs + (if adj then 1 else 0) + K -> offset <= li + K -> o2 <= gcols src pos p2 li bs' + K.
Proof.
  induction fuel as [|f IH]; intros src pos mx offset bs adj p2 o2 li bs' H H0 HB HO; cbn [bq_blanks] in H.
  - rfinish H. rewrite gcols_end by lia. exact HO.
  - destruct (negb (pos <? mx)) eqn:E; [rfinish H; rewrite gcols_end by lia; exact HO|].
    destruct (py_idx src pos) as [ch|?|] eqn:Ec; cbn [bind] in H; try discriminate H.
    destruct (is_space ch) eqn:Sp; [|rfinish H; rewrite gcols_end by lia; exact HO].
    pose proof (bq_blanks_mono _ _ _ _ _ _ _ _ _ H) as [M1 _].
    rewrite gcols_step by lia. rewrite (py_idx_char_at _ _ _ H0 Ec). rewrite Sp.
    eapply IH; [exact H | lia | exact HB|].
    destruct (ch =? 9); [|lia].
    set (a := if adj then 1 else 0) in *.
    pose proof (tabstop_mono (bs + a) offset (li + K) HO) as TM.
    replace (li + bs') with (li + K + (bs + a)) by lia. replace (offset + bs + a) with (offset + (bs + a)) by lia. lia.
Qed.

Lemma bq_strip_cols src pos0 e sc bs q : bq_strip src pos0 e sc bs = Ok q -> 0 <= pos0 ->
  q_sCount q <= gcols src (q_bMark q) (q_bMark q + q_tShift q) 0 (q_bsCount q).
Proof.
  intros H H0. unfold bq_strip in H. cbv zeta in H.
  destruct (bq_marker_shape src pos0 sc bs) as (pos1 & initial & adj & sa & E & P1 & P3). rewrite E in H.
  destruct (bq_blanks (S (length src)) src pos1 e initial bs adj) as [[p2 o2]|?|] eqn:BB; cbn [bind] in H; try discriminate H.
  pose proof (bq_blanks_cols initial _ _ _ _ _ _ _ _ _ 0 (bs + sc + 1 + (if sa then 1 else 0)) BB ltac:(destruct P1; lia) P3 ltac:(lia)) as C.
  pose proof (bq_blanks_mono _ _ _ _ _ _ _ _ _ BB) as [M1 _].
  injection H as <-. cbn [q_bMark q_tShift q_sCount q_bsCount]. replace (pos1 + (p2 - pos1)) with p2 by lia. lia.
Qed.

Lemma bq_strip_r src N l b e t sc bs : row_ok src N l b e t -> b + t < e ->
  nrq (bq_strip src (b + t) e sc bs)
      (fun q => row_ok src N l (q_bMark q) e (q_tShift q) /\ q_sCount q <= gcols src (q_bMark q) (q_bMark q + q_tShift q) 0 (q_bsCount q)).
Proof.
  intros (B0 & T0 & E0 & I1 & I3 & _) PE.
  cut (nrq (bq_strip src (b + t) e sc bs) (fun q => row_ok src N l (q_bMark q) e (q_tShift q))).
  { intros [A B]. split; [exact A|]. intros q BS. split; [exact (B q BS) | exact (bq_strip_cols _ _ _ _ _ _ BS ltac:(lia))]. }
  unfold bq_strip. cbv zeta.
  destruct (bq_marker_shape src (b + t) sc bs) as (pos1 & initial & adj & sa & -> & P1 & _).
  (* a blank directly behind the marker lies before the end mark: at the end mark sits a line feed or nothing *)
  assert (P : b + t + 1 <= pos1 <= e).
  { destruct P1 as [->|(-> & c & Ec & Sp)]; [lia|].
    pose proof (before_end src e (b + t + 1) c I3 ltac:(lia) Ec ltac:(intros ->; discriminate Sp)). lia. }
  apply (nrq_bind _ _ _ _ (bq_blanks_r (S (length src)) src pos1 e initial bs adj ltac:(lia) ltac:(lia) ltac:(unfold len in *; lia))).
  intros [p2 o2] _ (A & B). cbn [fst] in A, B. apply nrq_ok. cbn [q_bMark q_tShift].
  unfold row_ok. replace (pos1 + (p2 - pos1)) with p2 by lia. repeat split; try lia; assumption.
Qed.

(* CI with the bound on the lines as a parameter: the block quote rule lowers b_lineMax while the rows keep their
   promise, and a row rewrite is stated for any bound *)
Definition CIb (st : bstate) (M : Z) : Prop :=
  forall l b t sc bs, 0 <= l < M -> tb (b_bMarks st) l = Ok b -> tb (b_tShift st) l = Ok t -> tb (b_sCount st) l = Ok sc -> tb (b_bsCount st) l = Ok bs ->
    sc <= gcols (b_src st) b (b + t) 0 bs.
Lemma CI_CIb st : CI st <-> CIb st (b_lineMax st).
Proof. unfold CI, CIb. tauto. Qed.

Lemma row_update N M st st' l b e t sc bs : RI N st -> CIb st M -> rowset st st' l -> 0 <= b_lineMax st' <= N ->
  tb (b_bMarks st') l = Ok b -> tb (b_eMarks st) l = Ok e -> tb (b_tShift st') l = Ok t -> tb (b_sCount st') l = Ok sc -> tb (b_bsCount st') l = Ok bs ->
  row_ok (b_src st) N l b e t -> (l < M -> sc <= gcols (b_src st) b (b + t) 0 bs) -> RI N st' /\ CIb st' M.
Proof.
  intros (LM & L1 & L2 & L3 & L4 & L5 & R) C (ES & EE & [K1 O1] & [K5 O5] & [K3 O3] & [K4 O4]) LM' Eb Ee Et Es Ebs NEW QC. split.
  - unfold RI. rewrite ES, EE. split; [exact LM'|]. split; [lia|]. split; [exact L2|]. split; [lia|]. split; [lia|]. split; [lia|].
    intros j b' e' t' Hj Eb' Ee' Et'. destruct (Z.eq_dec j l) as [->|Nj].
    + rewrite Eb in Eb'. rewrite Ee in Ee'. rewrite Et in Et'. injection Eb' as <-. injection Ee' as <-. injection Et' as <-. exact NEW.
    + rewrite O1 in Eb' by lia. rewrite O3 in Et' by lia. exact (R j b' e' t' Hj Eb' Ee' Et').
  - intros j b' t' sc' bs' Hj Eb' Et' Es' Ebs'. rewrite ES. destruct (Z.eq_dec j l) as [->|Nj].
    + rewrite Eb in Eb'. rewrite Et in Et'. rewrite Es in Es'. rewrite Ebs in Ebs'.
      injection Eb' as <-. injection Et' as <-. injection Es' as <-. injection Ebs' as <-. apply QC. lia.
    + rewrite O1 in Eb' by lia. rewrite O3 in Et' by lia. rewrite O4 in Es' by lia. rewrite O5 in Ebs' by lia.
      exact (C j b' t' sc' bs' Hj Eb' Et' Es' Ebs').
Qed.

Lemma save_line_nr N sv st l : RI N st -> 0 <= l <= N -> nr (save_line sv st l).
Proof.
  intros R Hl. row R l.
  unfold save_line. rewrite Eb, Ebs, Et, Es. apply nr_ok.
Qed.

Lemma apply_bq_nr N st l q : RI N st -> 0 <= l <= N -> nr (apply_bq st l q).
Proof.
  intros (_ & L1 & _ & L3 & L4 & L5 & _) Hl. unfold apply_bq.
  apply nr_bind; [apply tb_set_nr; lia|]. intros bm _. apply nr_bind; [apply tb_set_nr; lia|]. intros bs _.
  apply nr_bind; [apply tb_set_nr; lia|]. intros sc _. apply nr_bind; [apply tb_set_nr; lia|]. intros ts _. apply nr_ok.
Qed.

Lemma restore_tables_nr : forall ts st line b bs sc, 0 <= line -> len b = len ts -> len bs = len ts -> len sc = len ts ->
  line + len ts <= len (b_bMarks st) -> line + len ts <= len (b_bsCount st) -> line + len ts <= len (b_tShift st) -> line + len ts <= len (b_sCount st) ->
  nr (restore_tables st line b bs ts sc).
Proof.
  induction ts as [|t ts IH]; intros st line b bs sc Hl L1 L2 L3 B1 B2 B3 B4.
  - destruct b, bs, sc; apply nr_ok.
  - destruct b as [|x b]; [discriminate L1|]. destruct sc as [|s sc]; [discriminate L3|]. destruct bs as [|y bs]; [discriminate L2|].
    rewrite !len_cons in *. pose proof (len_nonneg ts). cbn [restore_tables].
    apply nr_bind; [apply tb_set_nr; lia|]. intros bm E1. apply nr_bind; [apply tb_set_nr; lia|]. intros tsl E2.
    apply nr_bind; [apply tb_set_nr; lia|]. intros scl E3. apply nr_bind; [apply tb_set_nr; lia|]. intros bsl E4.
    destruct (tb_set_spec _ _ _ _ E1 Hl) as (_ & _ & K1). destruct (tb_set_spec _ _ _ _ E2 Hl) as (_ & _ & K2).
    destruct (tb_set_spec _ _ _ _ E3 Hl) as (_ & _ & K3). destruct (tb_set_spec _ _ _ _ E4 Hl) as (_ & _ & K4).
    apply IH; cbn [b_bMarks b_bsCount b_tShift b_sCount set]; lia.
Qed.

(* RI and the column invariant together: what the block quote line loop keeps while it rewrites rows *)
Definition bqI (N : Z) (st : bstate) : Prop := RI N st /\ CIb st (b_lineMax st).

Lemma bqI_tabs N st st1 : tabs_eq st st1 -> bqI N st -> bqI N st1.
Proof. intros (A1 & A2 & A3 & A4 & A5 & A6 & A7). unfold bqI, RI, CIb. rewrite A1, A2, A3, A4, A5, A6, A7. exact (fun x => x). Qed.

Lemma bqI_lineMax N st m : bqI N st -> 0 <= m <= b_lineMax st -> bqI N (st <| b_lineMax := m |>).
Proof.
  intros ((LM & R) & C) Hm.
  split; [split; [cbn; lia | exact R]|]. intros l b t sc bs Hl; apply C; cbn in Hl; lia.
Qed.

Lemma bqI_step N st hi st' b e t sc bs :
  bqI N st -> rowset st st' hi -> b_lineMax st' = b_lineMax st ->
  tb (b_bMarks st') hi = Ok b -> tb (b_eMarks st) hi = Ok e -> tb (b_tShift st') hi = Ok t -> tb (b_sCount st') hi = Ok sc -> tb (b_bsCount st') hi = Ok bs ->
  row_ok (b_src st) N hi b e t -> (hi < b_lineMax st -> sc <= gcols (b_src st) b (b + t) 0 bs) ->
  bqI N st'.
Proof.
  intros (R & C) RS LM Eb Ee Et Es Ebs RO QC.
  destruct (row_update N _ st st' hi b e t sc bs R C RS ltac:(rewrite LM; exact (RI_lineMax _ _ R)) Eb Ee Et Es Ebs RO QC) as [R' C'].
  split; [exact R' | rewrite LM; exact C'].
Qed.

Lemma bqI_step_sc N st hi scs v :
  bqI N st -> 0 <= hi <= N -> tb_set (b_sCount st) hi v = Ok scs -> (hi < b_lineMax st -> v <= 0) -> bqI N (st <| b_sCount := scs |>).
Proof.
  intros I HN TS HV.
  pose proof I as (R & _). row R hi.
  destruct (upd1_set _ _ _ _ TS ltac:(lia)) as [U V].
  apply (bqI_step N st hi _ b e t v bs I (sCount_rowset _ _ _ _ TS ltac:(lia))); try assumption; try reflexivity.
  intros Hlt. pose proof (gcols_ge (b_src st) bs (b + t) _ b 0 eq_refl). lia.
Qed.

Lemma bqI_step_bq N st hi q st' e :
  bqI N st -> 0 <= hi -> apply_bq st hi q = Ok st' ->
  tb (b_eMarks st) hi = Ok e -> row_ok (b_src st) N hi (q_bMark q) e (q_tShift q) ->
  q_sCount q <= gcols (b_src st) (q_bMark q) (q_bMark q + q_tShift q) 0 (q_bsCount q) ->
  bqI N st'.
Proof.
  intros I H0 AB Ee RO QC. destruct (apply_bq_sets _ _ _ _ AB) as (W1 & W2 & W3 & W4 & ES & EE & LM).
  apply (bqI_step N st hi st' (q_bMark q) e (q_tShift q) (q_sCount q) (q_bsCount q) I (apply_bq_rowset _ _ _ _ AB H0)); try assumption; [..|intros _; exact QC].
  all: eapply upd1_set; eassumption.
Qed.

Definition post_ok (N : Z) (st st' : bstate) : Prop :=
  RI N st' /\ TI st' /\ b_lineMax st' = b_lineMax st /\ b_src st' = b_src st /\ b_eMarks st' = b_eMarks st.
Lemma tabs_eq_TI st st' : tabs_eq st st' -> TI st -> TI st'.
Proof. exact (stb_TI st st'). Qed.
Lemma tabs_eq_CI st st' : tabs_eq st st' -> CI st -> CI st'.
Proof. intros (A1 & A2 & A3 & A4 & A5 & A6 & A7) H. unfold CI. rewrite A1, A2, A4, A5, A6, A7. exact H. Qed.
Lemma post_tabs N st st' : RI N st -> TI st -> tabs_eq st st' -> post_ok N st st'.
Proof.
  intros R HT T. split; [exact (tabs_eq_RI _ _ _ T R)|]. split; [exact (tabs_eq_TI _ _ T HT)|].
  destruct T as (A1 & _ & A3 & _ & _ & _ & A7). repeat split; assumption.
Qed.

(* the nested tokenize: no exception; what it leaves behind; where the cursor ends *)
Definition rec_n (N : Z) (rec : rec_t) : Prop := forall st a b,
  RI N st -> TI st -> CI st -> 0 <= a -> a < b -> b <= b_lineMax st ->
  nr (rec st a b) /\ forall st', rec st a b = Ok st' -> tabs_eq st st' /\ a <= b_line st' <= b_lineMax st.

(* a terminator callback does not raise where the rules do not (that it returns the state it was given is [term_fr]) *)
Definition term_nr (N : Z) (term : term_t) : Prop :=
  forall ch st a b, ch <> [] -> pre2 N st a b -> nr (term ch st a b).

Lemma pre2_tabs N st st' a b : tabs_eq st st' -> pre2 N st a b -> pre2 N st' a b.
Proof.
  intros TE (R & A & B & C). split; [exact (tabs_eq_RI _ _ _ TE R)|]. split; [exact A|]. split; [exact B|].
  rewrite (tabs_eq_lineMax _ _ TE). exact C.
Qed.
Lemma pre2_fr N st st' a b : fr st st' -> pre2 N st a b -> pre2 N st' a b.
Proof. intros F. exact (pre2_tabs N st st' a b (fr_tabs_eq st st' F)). Qed.

Section Callbacks.
Context (N : Z) (term : term_t) (T : term_fr term) (TN : term_nr N term).

Lemma para_scan_nr chain (CN : chain <> []) : forall fuel st nl el cu,
  RI N st -> 0 <= nl -> el <= b_lineMax st -> nr (para_scan fuel term chain st nl el cu).
Proof.
  induction fuel as [|f IH]; intros st nl el cu R H0 HE; [apply nr_oof|]. cbn [para_scan].
  destruct (negb (nl <? el)) eqn:E; [apply nr_ok|].
  row R nl.
  unfold is_empty, line_start. rewrite Eb, Et, Ee. cbn [bind].
  destruct (e <=? b + t) eqn:EM; [apply nr_ok|]. rewrite Es. cbn [bind].
  destruct (3 <? sc - b_blkIndent st); [apply IH; try assumption; lia|].
  apply nr_bind.
  { destruct (cu && (b_blkIndent st <=? sc)); [|apply nr_ok]. cbn [bind].
    destruct (b + t <? e) eqn:PM; [|apply nr_ok].
    apply nr_bind; [apply nr_py_idx; lia|]. intros marker _.
    destruct ((marker =? 45) || (marker =? 61)); [|apply nr_ok]. cbv zeta.
    destruct (e <=? skip_spaces (b_src st) (skip_chars (b_src st) (b + t) marker)); apply nr_ok. }
  intros ul _. destruct ul as [ml|]; [apply nr_ok|].
  destruct (sc <? 0); [apply IH; try assumption; lia|].
  apply nr_bind; [apply TN; [exact CN|]; split; [exact R|]; lia|].
  intros [tt st'] TE. pose proof (T _ _ _ _ _ _ CN TE) as F.
  destruct tt; [apply nr_ok|]. apply IH; [exact (tabs_eq_RI _ _ _ (fr_tabs_eq _ _ F) R) | lia|].
  rewrite (fr_lineMax _ _ F). exact HE.
Qed.

Lemma para_scan_r chain (CN : chain <> []) fuel st sl el cu :
  RI N st -> 0 <= sl < el -> el <= b_lineMax st ->
  nrq (para_scan fuel term chain (st_parent st chain) (sl + 1) el cu)
      (fun r => nr (get_lines (snd r) sl (fst (fst r)) (b_blkIndent (snd r)) false)).
Proof.
  intros R S0 S2. pose proof (RI_lineMax _ _ R) as LMN.
  split; [apply (para_scan_nr chain CN); [exact R | lia | exact S2]|]. intros [[nl u] st1] PS. cbn [fst snd].
  pose proof (para_scan_bounds _ _ _ _ _ _ _ _ _ _ PS) as (_ & P2 & _). specialize (P2 ltac:(lia)).
  pose proof (fr_tabs_eq _ _ (para_scan_fr term T chain CN _ _ _ _ _ _ _ _ PS)) as P0.
  apply (get_lines_nr N st1 (tabs_eq_RI _ _ _ P0 R)); [lia | lia | discriminate].
Qed.

Lemma r_paragraph_nr st sl el silent : pre2 N st sl el -> nr (r_paragraph term st sl el silent).
Proof.
  intros (R & S0 & S1 & S2). unfold r_paragraph. cbv zeta.
  apply (nr_bindq _ _ _ (para_scan_r nm_paragraph ltac:(discriminate) _ st sl (b_lineMax st) _ R ltac:(lia) ltac:(lia))).
  intros [[nl u] st1] _ GL. apply nr_bind; [exact GL|]. intros raw _. apply nr_ok.
Qed.

Lemma r_lheading_nr st sl el silent : pre2 N st sl el -> nr (r_lheading cfg term st sl el silent).
Proof.
  intros (R & S0 & S1 & S2). pose proof (RI_lineMax _ _ R) as LMN. unfold r_lheading.
  apply nr_bind; [apply (is_code_block_nr N); [exact R | lia]|]. intros c _.
  destruct c; [apply nr_ok|]. cbv zeta.
  apply (nr_bindq _ _ _ (para_scan_r nm_paragraph ltac:(discriminate) _ st sl el _ R ltac:(lia) ltac:(lia))).
  intros [[nl [[marker level]|]] st1] _ GL; [|apply nr_ok].
  apply nr_bind; [exact GL|]. intros raw _. apply nr_ok.
Qed.

Lemma ref_prescan_nr : forall fuel src pos maximum, 0 <= pos -> maximum <= len src -> nr (ref_prescan fuel src pos maximum).
Proof.
  induction fuel as [|f IH]; intros src pos maximum H0 HM; cbn [ref_prescan]; [apply nr_ok|].
  destruct (negb (pos <? maximum)) eqn:E; [apply nr_ok|].
  apply nr_bind; [apply nr_py_idx; lia|]. intros c _.
  apply nr_bind; [apply nr_py_idx_wrap; lia|]. intros prev _.
  destruct ((c =? 93) && negb (prev =? 92)); [|apply IH; lia].
  destruct (pos + 1 =? maximum) eqn:PM; [apply nr_ok|].
  apply nr_bind; [apply nr_py_idx; lia|]. intros n _. apply nr_ok.
Qed.

(* the line a block rule is tried on is never empty: the line loop skips empty lines first *)
Definition nonempty (st : bstate) (l : Z) : Prop :=
  forall b e t, tb (b_bMarks st) l = Ok b -> tb (b_eMarks st) l = Ok e -> tb (b_tShift st) l = Ok t -> b + t < e.

Lemma ref_head_nr st sl : RI N st -> 0 <= sl <= N -> nonempty st sl -> nr (ref_head cfg st sl).
Proof.
  intros R S0 NE. row R sl. specialize (NE b e t Eb Ee Et).
  unfold ref_head, line_start, code_block_at, is_code_block. rewrite Eb, Et, Ee, Es. cbn [bind].
  destruct (c_code cfg && (4 <=? sc - b_blkIndent st)); [apply nr_ok|].
  apply nr_bind; [apply nr_py_idx; lia|]. intros c0 _.
  destruct (negb (c0 =? 91)); [apply nr_ok | apply ref_prescan_nr; lia].
Qed.

Lemma r_reference_nr st sl el silent :
  pre2 N st sl el -> nonempty st sl -> nr (r_reference cfg rf cf term st sl el silent).
Proof.
  intros (R & S0 & S1 & S2) NE. pose proof (RI_lineMax _ _ R). rewrite r_reference_eq.
  apply nr_bind; [apply ref_head_nr; [exact R | lia | exact NE]|]. intros go _. destruct (negb go); [apply nr_ok|].
  apply (nr_bindq _ _ _ (para_scan_r nm_reference ltac:(discriminate) _ st sl (b_lineMax st) _ R ltac:(lia) ltac:(lia))).
  intros [[nl u] st1] _ GL. cbn [fst snd] in GL. apply nr_bind; [exact GL|]. intros raw _.
  (* the definition is read out of the extracted string: no table or source read *)
  destruct (ref_parse rf cf (py_strip raw)) as [[[[[rawlabel label] title] href] lines]|]; [destruct silent|]; apply nr_ok.
Qed.

Lemma get_line_nr st l : RI N st -> 0 <= l <= N -> nr (get_line st l).
Proof.
  intros R Hl. row R l.
  unfold get_line, line_start. rewrite Eb, Et, Ee. apply nr_ok.
Qed.

Lemma delim_chars_nr : forall fuel src pos maximum, 0 <= pos -> maximum <= len src -> nr (delim_chars fuel src pos maximum).
Proof.
  induction fuel as [|f IH]; intros src pos maximum H0 HM; cbn [delim_chars]; [apply nr_ok|].
  destruct (negb (pos <? maximum)) eqn:E; [apply nr_ok|].
  apply nr_bind; [apply nr_py_idx; lia|]. intros ch _.
  destruct (negb ((ch =? 124) || (ch =? 45) || (ch =? 58)) && negb (is_space ch)); [apply nr_ok | apply IH; lia].
Qed.

Lemma push_cells_tabs : forall aligns st0 st oty cty tag cols a b sne, tabs_eq st0 st -> tabs_eq st0 (push_cells st oty cty tag aligns cols a b sne).
Proof. induction aligns as [|al aligns IH]; intros st0 st oty cty tag cols a b sne H; cbn [push_cells]; [exact H | apply IH; exact H]. Qed.

Lemma table_rows_nr : forall fuel st aligns sl nl el tbody,
  RI N st -> 0 <= nl -> el <= b_lineMax st -> nr (table_rows cfg fuel term st aligns sl nl el tbody).
Proof.
  induction fuel as [|f IH]; intros st aligns sl nl el tbody R H0 HE; [apply nr_oof|]. cbn [table_rows].
  destruct (negb (nl <? el)) eqn:E; [apply nr_ok|].
  row R nl. rewrite Es. cbn [bind].
  destruct (sc <? b_blkIndent st); [apply nr_ok|].
  apply nr_bind; [apply TN; [discriminate|]; split; [exact R|]; lia|].
  intros [tt st1] TE. pose proof (fr_tabs_eq _ _ (T nm_blockquote _ _ _ _ _ ltac:(discriminate) TE)) as F.
  assert (R1 : RI N st1) by exact (tabs_eq_RI _ _ _ F R).
  destruct tt; [apply nr_ok|].
  apply nr_bind; [apply get_line_nr; [exact R1 | lia]|]. intros raw _. cbv zeta.
  destruct (py_strip raw) as [|c0 lt]; [apply nr_ok|].
  apply nr_bind; [apply (is_code_block_nr N); [exact R1 | lia]|]. intros cb _.
  destruct cb; [apply nr_ok|].
  assert (ROW : forall s5 tb2, tabs_eq st1 s5 -> nr (table_rows cfg f term s5 aligns sl (nl + 1) el tb2)).
  { intros s5 tb2 TT. apply IH; [exact (tabs_eq_RI _ _ _ TT R1) | lia|]. rewrite (tabs_eq_lineMax _ _ TT), (tabs_eq_lineMax _ _ F). exact HE. }
  destruct (nl =? sl + 2); cbv beta iota; apply ROW; repeat first [apply tabs_eq_bpush | apply push_cells_tabs]; apply tabs_eq_refl.
Qed.

Lemma table_head_nr st sl el : pre2 N st sl el -> nr (table_head cfg st sl el).
Proof.
  intros (R & S0 & S1 & S2).
  unfold table_head. destruct (el <? sl + 2) eqn:E2; [apply nr_ok|].
  row R (sl + 1).
  unfold code_block_at, is_code_block at 1. unfold line_start at 1. rewrite Es, Eb, Et, Ee. cbn [bind].
  destruct (sc <? b_blkIndent st); [apply nr_ok|].
  destruct (c_code cfg && (4 <=? sc - b_blkIndent st)); [apply nr_ok|].
  destruct (e <=? b + t) eqn:EP; [apply nr_ok|].
  apply nr_bind; [apply nr_py_idx; lia|]. intros c1 _.
  destruct (negb ((c1 =? 124) || (c1 =? 45) || (c1 =? 58))); [apply nr_ok|].
  destruct (e <=? b + t + 1) eqn:EP1; [apply nr_ok|].
  apply nr_bind; [apply nr_py_idx; lia|]. intros c2 _.
  destruct (negb ((c2 =? 124) || (c2 =? 45) || (c2 =? 58)) && negb (is_space c2)); [apply nr_ok|].
  destruct ((c1 =? 45) && is_space c2); [apply nr_ok|].
  apply nr_bind; [apply delim_chars_nr; lia|]. intros okc _. destruct (negb okc); [apply nr_ok|].
  apply nr_bind; [apply get_line_nr; [exact R | lia]|]. intros delim _.
  destruct (table_aligns (split_char 124 delim) 0 (len (split_char 124 delim))) as [aligns|]; [|apply nr_ok].
  apply nr_bind; [apply get_line_nr; [exact R | lia]|]. intros hraw _.
  destruct (negb (mem_z 124 (py_strip hraw))); [apply nr_ok|].
  apply nr_bind; [apply (is_code_block_nr N); [exact R | lia]|]. intros cb2 _. destruct cb2; [apply nr_ok|].
  match goal with |- nr (if ?c then _ else _) => destruct c end; apply nr_ok.
Qed.

Lemma r_table_nr st sl el silent : pre2 N st sl el -> nr (r_table cfg term st sl el silent).
Proof.
  intros P. pose proof P as (R & S0 & S1 & S2). rewrite r_table_eq.
  apply nr_bind; [exact (table_head_nr st sl el P)|]. intros [[aligns columns]|] _; [|apply nr_ok].
  destruct silent; [apply nr_ok|].
  assert (TT : tabs_eq st (table_st6 st aligns columns sl))
    by (unfold table_st6; cbv zeta; apply tabs_eq_bpush, tabs_eq_bpush, push_cells_tabs, tabs_eq_bpush, tabs_eq_bpush, tabs_eq_bpush; repeat split).
  apply nr_bind; [apply table_rows_nr; [exact (tabs_eq_RI _ _ _ TT R) | lia | rewrite (tabs_eq_lineMax _ _ TT); lia]|].
  intros [[nl tbody] st7] _. apply nr_ok.
Qed.

Lemma r_paragraph_tabs st sl el silent b st' : r_paragraph term st sl el silent = Ok (b, st') -> tabs_eq st st'.
Proof. intros H. exact (proj1 (proj2 (r_paragraph_run term T st sl el b st' H))). Qed.
Lemma r_lheading_tabs st sl el silent b st' : r_lheading cfg term st sl el silent = Ok (b, st') -> tabs_eq st st'.
Proof. intros H. exact (proj1 (r_lheading_run cfg term T st sl el b st' H)). Qed.
Lemma r_reference_tabs st sl el silent b st' : r_reference cfg rf cf term st sl el silent = Ok (b, st') -> tabs_eq st st'.
Proof. intros H. exact (proj1 (r_reference_run cfg rf cf term T _ _ _ _ _ _ H)). Qed.
Lemma table_rows_tabs fuel st aligns sl nl el tbody r tb' st' :
  table_rows cfg fuel term st aligns sl nl el tbody = Ok (r, tb', st') -> tabs_eq st st'.
Proof. exact (table_rows_stb cfg term T fuel st aligns sl nl el tbody r tb' st'). Qed.
Lemma r_table_tabs st sl el silent b st' : r_table cfg term st sl el silent = Ok (b, st') -> tabs_eq st st'.
Proof. intros H. exact (proj1 (r_table_run cfg term T _ _ _ _ _ _ H)). Qed.

Lemma bq_loop_r : forall fuel st sv nl el lle,
  bqI N st -> 0 <= nl -> nl <= el -> el <= b_lineMax st ->
  nrq (bq_loop fuel term st sv nl el lle) (fun '(_, _, st') => bqI N st').
Proof.
  induction fuel as [|f IH]; intros st sv nl el lle I S0 L0 L1; [apply nrq_oof|]. cbn [bq_loop].
  pose proof I as (R & _).
  match goal with |- nrq _ ?Q => assert (EXIT : nrq (Ok (nl, sv, st)) Q) by (apply nrq_ok; exact I) end.
  destruct (negb (nl <? el)) eqn:NE; [exact EXIT|].
  row R nl.
  unfold line_start. rewrite Es, Eb, Et, Ee. cbn [bind].
  destruct (e <=? b + t) eqn:MP; [exact EXIT|].
  apply nrq_bind_nr; [apply nr_py_idx; lia|]. intros c _.
  destruct ((c =? 62) && negb (sc <? b_blkIndent st)).
  - (* a quoted line *)
    rewrite Ebs. cbn [bind].
    apply (nrq_bind _ _ _ _ (bq_strip_r _ N nl b e t sc bs RO ltac:(lia))). intros q _ [RQ QC].
    apply nrq_bind_nr; [apply (save_line_nr N); [exact R | lia]|]. intros sv1 SL.
    apply nrq_bind_nr; [apply (apply_bq_nr N); [exact R | lia]|]. intros st1 AB.
    pose proof (bqI_step_bq N st nl q st1 e I S0 AB Ee RQ QC) as J1.
    destruct (apply_bq_sets _ _ _ _ AB) as (_ & _ & _ & _ & _ & _ & LM1).
    exact (IH st1 sv1 (nl + 1) el (q_empty q) J1 ltac:(lia) ltac:(lia) ltac:(lia)).
  - destruct lle; [exact EXIT|].
    apply nrq_bind_nr; [apply TN; [discriminate | split; [exact R | lia]]|]. intros [tt st1] TE.
    pose proof (fr_tabs_eq _ _ (T nm_blockquote _ _ _ _ _ ltac:(discriminate) TE)) as TQ.
    pose proof (bqI_tabs _ _ _ TQ I) as J1. pose proof TQ as (_ & _ & _ & _ & Q5 & _ & LM1).
    destruct tt.
    + (* a terminator stops the quote here *)
      cbv zeta. pose proof (bqI_lineMax N st1 nl J1 ltac:(lia)) as J2.
      destruct (negb (b_blkIndent (st1 <| b_lineMax := nl |>) =? 0)); [|apply nrq_ok; exact J2].
      apply nrq_bind_nr; [apply (save_line_nr N); [exact (proj1 J2) | lia]|]. intros sv1 SL.
      apply nrq_bind_nr; [apply (tb_set_nr_read _ _ sc); [cbn; rewrite Q5; exact Es | lia]|]. intros scs TS.
      apply nrq_ok. apply (bqI_step_sc N _ nl scs _ J2 ltac:(lia) TS). cbn. lia.
    + (* a lazy continuation line *)
      apply nrq_bind_nr; [apply (save_line_nr N); [exact (proj1 J1) | lia]|]. intros sv1 SL.
      apply nrq_bind_nr; [apply (tb_set_nr_read _ _ sc); [rewrite Q5; exact Es | lia]|]. intros scs TS.
      pose proof (bqI_step_sc N st1 nl scs (-1) J1 ltac:(lia) TS ltac:(lia)) as J3.
      exact (IH _ sv1 (nl + 1) el false J3 ltac:(lia) ltac:(lia) ltac:(cbn; lia)).
Qed.

Section Rec.
Context (rec : rec_t) (RN : rec_n N rec).

Lemma r_blockquote_r st sl el silent :
  pre2 N st sl el -> (silent = false -> TI st) -> (silent = false -> CI st) ->
  nrq (r_blockquote cfg rec term st sl el silent) (fun r => tabs_eq st (snd r)).
Proof.
  intros (R & S0 & S1 & S2) HTI HCI. row R sl.
  unfold r_blockquote, line_start, code_block_at, is_code_block. cbv zeta. rewrite Eb, Et, Ee, Es. cbn [bind].
  destruct (c_code cfg && (4 <=? sc - b_blkIndent st)); [apply nrq_same|].
  rewrite match_some_62.
  destruct (char_at (b_src st) (b + t)) as [z|] eqn:Ez; [|apply nrq_same]. destruct (z =? 62) eqn:C62; [|apply nrq_same].
  destruct silent; [apply nrq_same|]. specialize (HTI eq_refl). specialize (HCI eq_refl).
  rewrite Ebs. cbn [bind].
  (* the marker is a character of the line: the line is not empty *)
  assert (PE : b + t < e) by (apply (before_end _ _ _ z I3); [lia | exact Ez | lia]).
  apply (nrq_bind _ _ _ _ (bq_strip_r _ N sl b e t sc bs RO PE)). intros q BS [RQ QC].
  apply nrq_bind_nr; [apply (save_line_nr N); [exact R | lia]|]. intros sv0 SL.
  apply nrq_bind_nr; [apply (apply_bq_nr N); [exact R | lia]|]. intros st1 AB.
  pose proof (bqI_step_bq N st sl q st1 e (conj R (proj1 (CI_CIb _) HCI)) S0 AB Ee RQ QC) as J1.
  destruct (apply_bq_sets _ _ _ _ AB) as (_ & _ & _ & _ & _ & _ & LM1).
  apply (nrq_bind _ _ _ _ (bq_loop_r _ (st_parent st1 nm_blockquote) sv0 (sl + 1) el (q_empty q) J1 ltac:(lia) ltac:(lia) ltac:(cbn; lia))).
  intros [[nl sv] st3] BL J3.
  assert (LS : line_start st sl = Ok (b + t)) by (unfold line_start; rewrite Eb, Et; reflexivity).
  destruct (bq_lines term T _ _ _ _ _ _ _ _ _ _ _ _ _ _ _ HTI S0 S1 S2 LS BS SL AB BL)
    as (B1 & B2 & B3 & HT3 & (hi & HH & X1 & X2 & X3 & X4) & (_ & _ & ES3 & EE3 & _) & _).
  match goal with |- nrq (bind (rec ?S5 _ _) _) _ => pose proof (J3 : bqI N S5) as (R5 & C5) end.
  refine (nrq_bind _ _ _ _ (RN _ sl nl R5 HT3 (proj2 (CI_CIb _) C5) S0 ltac:(lia) ltac:(cbn; lia) : nrq _ _) _).
  intros st6 _ [(ES6 & BM6 & EE6 & TS6 & SC6 & BS6 & LM6) _]. cbn in ES6, BM6, EE6, TS6, SC6, BS6.
  (* writing the saved rows back gives the tables of st *)
  pose proof (tabs_eq_RI _ _ _ (conj ES6 (conj BM6 (conj EE6 (conj TS6 (conj SC6 (conj BS6 LM6)))))) R5) as (_ & L1 & _ & L3 & L4 & L5 & _).
  pose proof X1 as [_ [N1 _]]. pose proof X2 as [_ [N2 _]]. pose proof X3 as [_ [N3 _]]. pose proof X4 as [_ [N4 _]].
  apply nrq_bind_nr; [apply restore_tables_nr; cbn [b_bMarks b_bsCount b_tShift b_sCount st_parent bpush set]; lia|]. intros st10 RT.
  (* the state the rows are written into gets a name: written out, it is copied by every step on RT *)
  set (st9 := _ <| b_tokens := _ |>) in RT.
  apply restore_tables_spec in RT; [|exact S0|lia..]. destruct RT as (P1 & P2 & P3 & P4 & (_ & _ & K3 & K4 & _) & LM10).
  rewrite <- BM6 in X1. rewrite <- BS6 in X2. rewrite <- TS6 in X3. rewrite <- SC6 in X4.
  apply nrq_ok. unfold tabs_eq. cbn [snd b_src b_bMarks b_eMarks b_tShift b_sCount b_bsCount b_lineMax set].
  rewrite (patched_back _ _ _ _ _ _ X1 S0 P1), (patched_back _ _ _ _ _ _ X2 S0 P2), (patched_back _ _ _ _ _ _ X3 S0 P3), (patched_back _ _ _ _ _ _ X4 S0 P4).
  rewrite K3, K4, LM10. repeat split; cbn; congruence.
Qed.

Lemma list_blanks_r : forall fuel src pos mx off bs li,
  0 <= pos <= mx -> mx <= len src -> (Z.to_nat (mx - pos) < fuel)%nat -> off <= li ->
  nrq (list_blanks fuel src pos mx off bs)
      (fun r => pos <= fst r <= mx /\ (fst r < mx -> exists c, py_idx src (fst r) = Ok c /\ is_space c = false)
                /\ snd r <= gcols src pos (fst r) li bs).
Proof.
  intros fuel src pos mx off bs li H0 HM HF HO. rewrite list_blanks_bq.
  apply (nrq_weaken _ _ _ (bq_blanks_r fuel src pos mx off bs false H0 HM HF)). intros [p2 o2] E [A B].
  split; [exact A|]. split; [exact B|].
  pose proof (bq_blanks_cols 0 _ _ _ _ _ _ _ _ _ li bs E (proj1 H0) ltac:(cbn; lia) ltac:(lia)) as C. cbn [fst snd]. lia.
Qed.

Lemma ordered_digits_nr : forall fuel src start pos maximum, 0 <= pos -> maximum <= len src -> nr (ordered_digits fuel src start pos maximum).
Proof.
  induction fuel as [|f IH]; intros src start pos maximum H0 HM; cbn [ordered_digits]; [apply nr_ok|].
  destruct (maximum <=? pos) eqn:E; [apply nr_ok|].
  apply nr_bind; [apply nr_py_idx; lia|]. intros ch _. cbv zeta.
  destruct (is_digit ch); [destruct (10 <=? pos + 1 - start); [apply nr_ok | apply IH; lia]|].
  destruct ((ch =? 41) || (ch =? 46)); [|apply nr_ok].
  destruct (pos + 1 <? maximum) eqn:PM; [|apply nr_ok].
  apply nr_bind; [apply nr_py_idx; lia|]. intros c _. apply nr_ok.
Qed.

(* the position after a list marker: inside the line, right behind a character of the source *)
Definition pam_ok (st : bstate) (sl pam : Z) : Prop :=
  forall b e t, tb (b_bMarks st) sl = Ok b -> tb (b_eMarks st) sl = Ok e -> tb (b_tShift st) sl = Ok t -> b + t < pam <= e.

Lemma pam_ok_intro st l b e t r : tb (b_bMarks st) l = Ok b -> tb (b_eMarks st) l = Ok e -> tb (b_tShift st) l = Ok t ->
  b + t < r <= e -> pam_ok st l r.
Proof. intros Eb Ee Et H b' e' t' Eb' Ee' Et'. rewrite Eb in Eb'. rewrite Ee in Ee'. rewrite Et in Et'. injection Eb' as <-. injection Ee' as <-. injection Et' as <-. exact H. Qed.

Lemma skip_ordered_r st l : RI N st -> 0 <= l <= N -> nrq (skip_ordered st l) (fun r => r = -1 \/ pam_ok st l r).
Proof.
  intros R Hl. row R l.
  unfold skip_ordered, line_start. rewrite Eb, Et, Ee. cbn [bind].
  destruct (e <=? b + t + 1) eqn:X; [apply nrq_ok; left; reflexivity|].
  apply nrq_bind_nr; [apply nr_py_idx; lia|]. intros ch _. destruct (negb (is_digit ch)); [apply nrq_ok; left; reflexivity|].
  split; [apply ordered_digits_nr; lia|]. intros r H. apply ordered_digits_le in H.
  destruct (Z.eq_dec r (-1)); [left; assumption | right; apply (pam_ok_intro _ _ b e t); try assumption; lia].
Qed.

Lemma skip_bullet_r st l : RI N st -> 0 <= l <= N -> nrq (skip_bullet st l) (fun r => r = -1 \/ pam_ok st l r).
Proof.
  intros R Hl. row R l.
  unfold skip_bullet, line_start. rewrite Eb, Et, Ee. cbn [bind].
  destruct (char_at (b_src st) (b + t)) as [m|] eqn:Em; [|apply nrq_ok; left; reflexivity].
  destruct (negb ((m =? 42) || (m =? 45) || (m =? 43))) eqn:NM; [apply nrq_ok; left; reflexivity|].
  (* the marker is a character of the line *)
  assert (MK : b + t < e) by (apply (before_end _ _ _ m I3); [lia | exact Em | lia]).
  destruct (b + t + 1 <? e) eqn:X; [|apply nrq_ok; right; apply (pam_ok_intro _ _ b e t); try assumption; lia].
  apply nrq_bind_nr; [apply nr_py_idx; lia|]. intros ch _. apply nrq_ok.
  destruct (is_space ch); [right; apply (pam_ok_intro _ _ b e t); try assumption; lia | left; reflexivity].
Qed.

Lemma item_reads_r st sl pam : RI N st -> TI st -> CI st -> 0 <= sl -> sl < b_lineMax st -> pam_ok st sl pam ->
  nrq (item_reads st sl sl pam) (fun '(blank, indent, ots, osc, ts', sc') => forall isOrd mc start,
         let st2 := item_st2 st isOrd mc sl start pam indent ts' sc' in RI N st2 /\ TI st2 /\ CI st2).
Proof.
  intros R HT HC S0 S1 PM. row R sl. specialize (PM b e t Eb Ee Et).
  unfold item_reads, line_start. rewrite Ee, Es, Eb, Et, Ebs. cbn [bind].
  (* the columns getLines counts from the line's first character up to the marker's end *)
  pose proof (HC sl b t sc bs ltac:(lia) Eb Et Es Ebs) as C0.
  assert (GC : sc + pam - (b + t) <= gcols (b_src st) (b + t) pam (gcols (b_src st) b (b + t) 0 bs) bs).
  { pose proof (gcols_chars (b_src st) bs pam _ (b + t) (gcols (b_src st) b (b + t) 0 bs) eq_refl ltac:(lia) ltac:(lia)). lia. }
  apply (nrq_bind _ _ _ _ (list_blanks_r (S (length (b_src st))) (b_src st) pam e _ bs _ ltac:(lia) ltac:(lia) ltac:(unfold len in *; lia) GC)).
  intros [contentStart offset] _ (LB1 & LB4 & LBC). cbn [fst snd] in LB1, LB4, LBC.
  apply nrq_bind_nr; [exact (tb_set_nr_read _ _ _ _ Et S0)|]. intros ts' S1'.
  apply nrq_bind_nr; [exact (tb_set_nr_read _ _ _ _ Es S0)|]. intros sc' S2'. apply nrq_ok. intros isOrd mc start. set (st2 := item_st2 _ _ _ _ _ _ _ _ _).
  destruct (upd1_set _ _ _ _ S1' S0) as [U1 TS1]. destruct (upd1_set _ _ _ _ S2' S0) as [U2 SC1].
  assert (RS : rowset st st2 sl) by exact (conj eq_refl (conj eq_refl (conj (upd1_refl _ _) (conj (upd1_refl _ _) (conj U1 U2))))).
  destruct (row_update N _ st st2 sl b e (contentStart - b) offset bs R (proj1 (CI_CIb _) HC) RS LMN Eb Ee TS1 SC1 Ebs) as [R2 C2].
  { unfold row_ok. replace (b + (contentStart - b)) with contentStart by lia. repeat split; try lia; assumption. }
  { intros _. replace (b + (contentStart - b)) with contentStart by lia.
    rewrite (gcols_split (b_src st) bs contentStart (b + t) _ b 0 eq_refl) by lia.
    rewrite (gcols_split (b_src st) bs contentStart pam _ (b + t) _ eq_refl) by lia. exact LBC. }
  split; [exact R2|]. split; [exact (TIp_set_ts _ _ _ _ _ _ _ HT S0 S1' ltac:(lia)) | exact C2].
Qed.

Lemma item_body_r st2 sl el blank : RI N st2 -> TI st2 -> CI st2 -> 0 <= sl -> sl < el -> el <= b_lineMax st2 -> b_line st2 = sl ->
  nrq (item_body rec st2 sl el blank) (fun st3 => tabs_eq st2 st3 /\ sl <= b_line st3 <= b_lineMax st2).
Proof.
  intros R2 HT2 C2 S0 S1 S2 BL. pose proof (RI_lineMax _ _ R2). unfold item_body.
  apply nrq_bind_nr; [destruct blank; [apply (is_empty_nr N); [exact R2 | lia] | apply nr_ok]|].
  intros [|] _; [|exact (RN st2 sl el R2 HT2 C2 S0 S1 S2)].
  apply nrq_ok. rewrite BL. split; [repeat split | cbn; lia].
Qed.

Lemma item_back_nr st3 sl ots osc : RI N st3 -> 0 <= sl -> sl <= b_line st3 <= b_lineMax st3 -> nr (item_back st3 sl ots osc).
Proof.
  intros R3 S0 LB3. pose proof R3 as (LM & _ & _ & L3 & L4 & _). unfold item_back.
  apply nr_bind; [destruct (1 <? b_line st3 - sl) eqn:X; [apply (is_empty_nr N); [exact R3 | lia] | apply nr_ok]|]. intros pee _.
  apply nr_bind; [apply tb_set_nr; lia|]. intros ts'' _. apply nr_bind; [apply tb_set_nr; lia|]. intros sc'' _. apply nr_ok.
Qed.

(* an item leaves the tables as they were if its body does: the two entries it wrote are written back *)
Lemma item_tabs st sl pam blank indent ots osc ts' sc' isOrd mc start st3 pee ts'' sc'' :
  item_reads st sl sl pam = Ok (blank, indent, ots, osc, ts', sc') -> tabs_eq (item_st2 st isOrd mc sl start pam indent ts' sc') st3 ->
  item_back st3 sl ots osc = Ok (pee, ts'', sc'') -> 0 <= sl -> tabs_eq st (item_st6 st st3 mc sl ts'' sc'').
Proof.
  unfold item_reads, item_back. intros RD (SR3 & BM3 & EM3 & TS3 & SC3 & BS3 & LM3) BK S0.
  rstep RD. rbind RD as osc0 eqn:Es. do 4 rstep RD. rbind RD as ots0 eqn:Et. rstep RD. rbind RD as ts0 eqn:S1'. rbind RD as sc0 eqn:S2'.
  injection RD as _ _ <- <- <- <-.
  rstep BK. rbind BK as t2 eqn:S3'. rbind BK as s2 eqn:S4'. injection BK as _ <- <-.
  rewrite TS3 in S3'. rewrite SC3 in S4'.
  rewrite (tb_set_back _ _ _ _ _ _ S1' Et S3' S0), (tb_set_back _ _ _ _ _ _ S2' Es S4' S0).
  unfold tabs_eq. cbn. repeat split; assumption.
Qed.

Lemma item_next_r st6 isOrd mc nl el start : RI N st6 -> 0 <= nl <= b_lineMax st6 -> el <= b_lineMax st6 ->
  nrq (item_next cfg term st6 isOrd mc nl el start)
      (fun '(nx, st7) => fr st6 st7 /\ forall pam' start', nx = Some (pam', start') -> nl < el /\ pam_ok st7 nl pam').
Proof.
  intros R6 LN LE. pose proof (RI_lineMax _ _ R6) as LM6. unfold item_next.
  match goal with |- nrq _ ?Q => assert (STOP : forall s, fr st6 s -> nrq (Ok (@None (Z * Z), s)) Q)
    by (intros s F; apply nrq_ok; split; [exact F | discriminate]) end.
  destruct (el <=? nl) eqn:EN; [exact (STOP _ (fr_refl _))|].
  destruct (RI_reads N st6 nl R6 ltac:(lia)) as (b6 & e6 & t6 & sc6 & bs6 & _ & _ & _ & Es6 & _).
  unfold code_block_at, is_code_block. rewrite Es6. cbn [bind].
  destruct (sc6 <? b_blkIndent st6); [exact (STOP _ (fr_refl _))|].
  destruct (c_code cfg && (4 <=? sc6 - b_blkIndent st6)); [exact (STOP _ (fr_refl _))|].
  apply nrq_bind_nr; [apply TN; [discriminate | split; [exact R6 | lia]]|]. intros [tt st7] TE.
  pose proof (T nm_list _ _ _ _ _ ltac:(discriminate) TE) as F7.
  pose proof (tabs_eq_RI _ _ _ (fr_tabs_eq _ _ F7) R6) as R7.
  destruct tt; [exact (STOP _ F7)|].
  apply (nrq_bind _ _ (fun r => r = -1 \/ pam_ok st7 nl r)).
  { destruct isOrd; [apply skip_ordered_r | apply skip_bullet_r]; (exact R7 || lia). }
  intros pam' _ PM'.
  destruct (pam' <? 0) eqn:PN; [exact (STOP _ F7)|]. destruct PM' as [->|PM']; [discriminate PN|].
  apply nrq_bind_nr; [destruct isOrd; [apply (line_start_nr N); [exact R7 | lia] | apply nr_ok]|]. intros start' _.
  destruct (RI_reads N st7 nl R7 ltac:(lia)) as (b7 & e7 & t7 & _ & _ & Eb7 & Ee7 & Et7 & _ & _ & (B07 & T07 & E07 & _)).
  pose proof (PM' b7 e7 t7 Eb7 Ee7 Et7) as PMB.
  apply nrq_bind_nr; [apply nr_py_idx; lia|]. intros mc' _. apply nrq_ok. split; [exact F7|]. intros p q E.
  destruct (negb (mc' =? mc)); [discriminate E|]. injection E as <- <-. split; [lia | exact PM'].
Qed.

Lemma list_items_r :
  forall fuel st isOrd mc sl el pam start tight pee,
  RI N st -> TI st -> CI st -> 0 <= sl -> sl < el -> el <= b_lineMax st -> b_line st = sl -> pam_ok st sl pam ->
  nrq (list_items cfg fuel rec term st isOrd mc sl sl el pam start tight pee) (fun r => tabs_eq st (snd r)).
Proof.
  induction fuel as [|f IH]; intros st isOrd mc sl el pam start tight pee R HT HC S0 S1 S2 BL PM; [apply nrq_oof|].
  pose proof (RI_lineMax _ _ R) as LMN.
  assert (NE : negb (sl <? el) = false) by lia. rewrite list_items_S, NE.
  apply (nrq_bind _ _ _ _ (item_reads_r st sl pam R HT HC S0 ltac:(lia) PM)).
  intros [[[[[blank indent] ots] osc] ts'] sc'] RD ST2. destruct (ST2 isOrd mc start) as (R2 & HT2 & C2).
  apply (nrq_bind _ _ _ _ (item_body_r _ sl el blank R2 HT2 C2 S0 S1 S2 BL)). intros st3 _ (TE3 & LB3).
  apply nrq_bind_nr; [apply item_back_nr; [exact (tabs_eq_RI _ _ _ TE3 R2) | exact S0 | rewrite (tabs_eq_lineMax _ _ TE3); exact LB3]|].
  intros [[pee' ts''] sc''] BK. cbv zeta.
  pose proof (item_tabs _ _ _ _ _ _ _ _ _ _ mc _ _ _ _ _ RD TE3 BK S0) as TE6.
  pose proof (tabs_eq_lineMax _ _ TE6) as LM6. change (b_lineMax (item_st2 st isOrd mc sl start pam indent ts' sc')) with (b_lineMax st) in LB3.
  apply (nrq_bind _ _ _ _ (item_next_r (item_st6 st st3 mc sl ts'' sc'') isOrd mc (b_line st3) el start (tabs_eq_RI _ _ _ TE6 R) ltac:(lia) ltac:(lia))).
  intros [[[pam' start']|] st7] _ (F7 & PM');
    pose proof (tabs_eq_trans _ _ _ TE6 (fr_tabs_eq _ _ F7)) as TE7; [|apply nrq_ok; exact TE7].
  destruct (PM' _ _ eq_refl) as [EN PM2]. pose proof (tabs_eq_lineMax _ _ TE7) as LM7.
  apply (nrq_tabs _ _ _ _ TE7).
  exact (IH st7 isOrd mc (b_line st3) el pam' start' _ pee' (tabs_eq_RI _ _ _ TE7 R) (tabs_eq_TI _ _ TE7 HT) (tabs_eq_CI _ _ TE7 HC)
            ltac:(lia) EN ltac:(lia) (fr_line _ _ F7) PM2).
Qed.

Lemma list_head_r st sl silent : RI N st -> 0 <= sl <= N ->
  nrq (list_head cfg st sl silent) (fun h => match h with Some (_, pam, _, _, _) => pam_ok st sl pam | None => True end).
Proof.
  intros R S0. row R sl.
  unfold list_head, code_block_at, is_code_block. rewrite Es. cbn [bind].
  destruct (c_code cfg && (4 <=? sc - b_blkIndent st)); [apply nrq_ok; exact I|].
  match goal with |- nrq (if ?c then _ else _) _ => destruct c end; [apply nrq_ok; exact I|].
  apply (nrq_bind _ _ _ _ (skip_ordered_r st sl R S0)). intros pamo _ PO.
  unfold line_start at 1. rewrite Eb, Et. cbn [bind].
  apply (nrq_bind _ _ (fun sel => match sel with None => True | Some (_, pam, _) => pam_ok st sl pam end)).
  { destruct (0 <=? pamo) eqn:P0.
    - match goal with |- nrq (if ?c then _ else _) _ => destruct c end; apply nrq_ok; [exact I|].
      destruct PO as [->|PO]; [discriminate P0 | exact PO].
    - apply (nrq_bind _ _ _ _ (skip_bullet_r st sl R S0)). intros pamb _ PB.
      destruct (0 <=? pamb) eqn:P1; apply nrq_ok; [|exact I]. destruct PB as [->|PB]; [discriminate P1 | exact PB]. }
  intros [[[isOrd pam] mv]|] _ SP; [|apply nrq_ok; exact I].
  rewrite Ee. cbn [bind].
  match goal with |- nrq (if ?c then _ else _) _ => destruct c end; [apply nrq_ok; exact I|].
  pose proof (SP b e t Eb Ee Et) as PB'.
  apply nrq_bind_nr; [apply nr_py_idx; lia|]. intros mc _. apply nrq_ok. exact SP.
Qed.

Lemma r_list_r st sl el silent :
  pre2 N st sl el -> (silent = false -> TI st) -> (silent = false -> CI st) -> (silent = false -> b_line st = sl) ->
  nrq (r_list cfg rec term st sl el silent) (fun r => tabs_eq st (snd r)).
Proof.
  intros (R & S0 & S1 & S2) HTI HCI BLn. pose proof (RI_lineMax _ _ R) as LMN. rewrite r_list_eq.
  apply (nrq_bind _ _ _ _ (list_head_r st sl silent R ltac:(lia))). intros [[[[[isOrd pam] mv] mc] start]|] _ SP; [|apply nrq_same].
  destruct silent; [apply nrq_same|]. specialize (BLn eq_refl). specialize (HTI eq_refl). specialize (HCI eq_refl).
  destruct (list_st1_push st isOrd mc mv sl) as (ty & tag & f & E1). rewrite E1.
  assert (TE1 : tabs_eq st (st_parent (bpush st ty tag 1 f) nm_list)) by repeat split.
  apply (nrq_bind _ _ (fun r => tabs_eq (st_parent (bpush st ty tag 1 f) nm_list) (snd r))).
  { apply list_items_r; [exact (tabs_eq_RI _ _ _ TE1 R) | exact (tabs_eq_TI _ _ TE1 HTI) | exact (tabs_eq_CI _ _ TE1 HCI)
      | exact S0 | exact S1 | exact S2 | exact BLn | exact SP]. }
  intros [[nl tight] st3] _ TE3. apply nrq_ok.
  match goal with |- context [list_st5 st st3 isOrd mc sl nl ?p] => destruct (list_st5_push st st3 isOrd mc sl nl p) as (ty' & tag' & f' & _ & E5) end.
  cbn [snd]. rewrite E5. unfold list_st6. destruct tight; exact (tabs_eq_trans _ _ _ TE1 TE3).
Qed.

End Rec.

End Callbacks.

End Rules.

Section Loop.
Context (cfg : bcfg) (rf cf : str -> str).

(* terminator chains: silent-capable rules, and not the reference rule (it reads the first character
   of the line unguarded; the Ruler never puts it into a chain: it has no alt entry) *)
Definition term_names_ok : Prop :=
  forall ch n, ch <> [] -> In n (c_term cfg ch) -> silent_capable n /\ str_eqb n nm_reference = false.

Lemma term_names_silent : term_names_ok -> silent_terms cfg.
Proof. intros H ch n CN I. exact (proj1 (H ch n CN I)). Qed.

Lemma apply_rule_r N rec term (RN : rec_n N rec) (T : term_fr term) (TN : term_nr N term)
      n st sl el silent :
  pre2 N st sl el -> (silent = false -> TI st) -> (silent = false -> CI st) -> (silent = false -> b_line st = sl) ->
  (silent = true -> silent_capable n /\ str_eqb n nm_reference = false) -> (silent = false -> nonempty st sl) ->
  nrq (apply_rule cfg rf cf rec term n st sl el silent) (fun r => tabs_eq st (snd r)).
Proof.
  intros P HT HC BL SC NE.
  assert (BOTH : forall m : res (bool * bstate), nr m -> (forall b st', m = Ok (b, st') -> tabs_eq st st') -> nrq m (fun r => tabs_eq st (snd r))).
  { intros m A B. split; [exact A|]. intros [b st'] H. exact (B b st' H). }
  apply apply_rule_cases; try intros ->.
  - apply BOTH; [apply (r_table_nr cfg N); assumption | intros b st'; apply (r_table_tabs cfg term T)].
  - apply BOTH; [apply (r_code_nr cfg N); assumption | intros b st'; apply r_code_tabs].
  - apply BOTH; [apply (r_fence_nr cfg N); assumption | intros b st'; apply r_fence_tabs].
  - apply (r_blockquote_r cfg N); assumption.
  - apply BOTH; [apply (r_hr_nr cfg N); assumption | intros b st'; apply r_hr_tabs].
  - apply (r_list_r cfg N); assumption.
  - destruct silent; [destruct (SC eq_refl) as [_ X]; discriminate X|].
    apply BOTH; [apply (r_reference_nr cfg rf cf N); try assumption; apply NE; reflexivity | intros b st'; apply (r_reference_tabs cfg rf cf term T)].
  - apply BOTH; [apply (r_html_block_nr cfg N); assumption | intros b st'; apply r_html_block_tabs].
  - apply BOTH; [apply (r_heading_nr cfg N); assumption | intros b st'; apply r_heading_tabs].
  - apply BOTH; [apply (r_lheading_nr cfg N); assumption | intros b st'; apply (r_lheading_tabs cfg term T)].
  - apply BOTH; [apply (r_paragraph_nr N); assumption | intros b st'; apply (r_paragraph_tabs term T)].
  - apply nrq_ok. apply tabs_eq_refl.
Qed.

Lemma no_rec_n N : rec_n N no_rec.
Proof. intros st a b _ _ _ _ _ _. split; [apply nr_oof | discriminate]. Qed.
Lemma no_term_nr N : term_nr N no_term.
Proof. intros ch st a b _ _. apply nr_oof. Qed.

Lemma run_chain_nr N : forall names st l el,
  (forall n, In n names -> silent_capable n /\ str_eqb n nm_reference = false) ->
  pre2 N st l el -> nr (run_chain cfg rf cf names st l el).
Proof.
  induction names as [|n names IH]; intros st l el SC P; cbn [run_chain]; [apply nr_ok|].
  destruct (apply_rule_r N no_rec no_term (no_rec_n N) no_term_fr (no_term_nr N) n st l el true P
              ltac:(discriminate) ltac:(discriminate) ltac:(discriminate) (fun _ => SC n (or_introl eq_refl)) ltac:(discriminate)) as [A B].
  apply nr_bind; [exact A|]. intros [r s1] E. specialize (B _ E).
  destruct r; [apply nr_ok|]. apply IH; [intros m Hm; apply SC; right; exact Hm | exact (pre2_tabs _ _ _ _ _ B P)].
Qed.

Lemma terminated_nr N (TNO : term_names_ok) : term_nr N (terminated cfg rf cf).
Proof.
  intros ch st a b CN P. unfold terminated. apply (run_chain_nr N); [|exact P].
  intros n Hn. exact (TNO ch n CN Hn).
Qed.

Lemma nonempty_tabs st st' l : tabs_eq st st' -> nonempty st l -> nonempty st' l.
Proof. intros (_ & A2 & A3 & A4 & _) H b e t. rewrite A2, A3, A4. apply H. Qed.

Lemma try_rules_r N rec (RN : rec_n N rec) (RC : rec_c rec) (TNO : term_names_ok) :
  forall names st sl el, pre2 N st sl el -> TI st -> CI st -> b_line st = sl -> nonempty st sl ->
  nr (try_rules cfg rf cf rec names st sl el)
  /\ forall st', try_rules cfg rf cf rec names st sl el = Ok st' -> tabs_eq st st'.
Proof.
  pose proof (terminated_fr cfg rf cf (term_names_silent TNO)) as TF.
  induction names as [|n names IH]; intros st sl el P HT HC BL NE;
    match goal with |- nr ?m /\ _ => change (nrq m (tabs_eq st)) end; cbn [try_rules]; [apply nrq_ok; apply tabs_eq_refl|].
  apply (nrq_bind _ _ _ _ (apply_rule_r N rec (terminated cfg rf cf) RN TF (terminated_nr N TNO)
                             n st sl el false P (fun _ => HT) (fun _ => HC) (fun _ => BL) ltac:(discriminate) (fun _ => NE))).
  intros [r s1] AR B. cbn [snd] in B. destruct r; [apply nrq_ok; exact B|].
  destruct (apply_rule_c cfg rf cf rec _ RC TF _ _ _ _ _ _ _ AR ltac:(discriminate)) as [C _]. unfold rule_c in C. cbn [andb] in C.
  apply (nrq_tabs _ _ _ (fun s => s) B).
  exact (IH s1 sl el (pre2_tabs _ _ _ _ _ B P) (tabs_eq_TI _ _ B HT) (tabs_eq_CI _ _ B HC)
            ltac:(rewrite (fr_line _ _ C); exact BL) (nonempty_tabs _ _ _ B NE)).
Qed.

Lemma skip_empty_nonempty : forall fuel st a, (Z.to_nat (b_lineMax st - a) < fuel)%nat ->
  skip_empty_lines fuel st a < b_lineMax st -> is_empty st (skip_empty_lines fuel st a) = Ok false.
Proof.
  induction fuel as [|f IH]; intros st a HF HL; [lia|]. cbn [skip_empty_lines] in *.
  destruct (negb (a <? b_lineMax st)) eqn:E; [lia|].
  destruct (is_empty st a) as [[|]|?|] eqn:IE; try (apply IH; [lia | exact HL]). exact IE.
Qed.

Lemma is_empty_false_nonempty st l : is_empty st l = Ok false -> nonempty st l.
Proof.
  unfold is_empty, line_start, nonempty. intros H b e t Eb Ee Et. rewrite Eb, Et in H. cbn [bind] in H. rewrite Ee in H. cbn [bind] in H.
  injection H as H. lia.
Qed.

Lemma tok_head_nr N st line el : RI N st -> 0 <= line -> line <= b_lineMax st -> nr (tok_head cfg st line el).
Proof.
  intros R L0 L1. unfold tok_head.
  destruct (skip_empty_spec (S (Z.to_nat (b_lineMax st))) st line) as [E1 E2]. specialize (E2 L1).
  set (line1 := skip_empty_lines (S (Z.to_nat (b_lineMax st))) st line) in *.
  destruct (el <=? line1); [apply nr_ok|]. row R line1. rewrite Es. cbn [bind].
  destruct (sc <? b_blkIndent st); [apply nr_ok|]. destruct (c_maxNesting cfg <=? b_level st); apply nr_ok.
Qed.

Lemma tok_next_nr N st2 el hel : RI N st2 -> 1 <= b_line st2 -> el <= b_lineMax st2 -> nr (tok_next st2 el hel).
Proof.
  intros R2 L2 LE. pose proof (RI_lineMax _ _ R2). unfold tok_next.
  apply nr_bind; [destruct (b_line st2 - 1 <? el) eqn:X; [apply (is_empty_nr N); [exact R2 | lia] | apply nr_ok]|]. intros e1 _.
  apply nr_bind; [destruct (b_line st2 <? el) eqn:X; [apply (is_empty_nr N); [exact R2 | lia] | apply nr_ok]|]. intros e2 _. apply nr_ok.
Qed.

Lemma tok_loop_r N rec (RN : rec_n N rec) (RC : rec_c rec) (TNO : term_names_ok)
      (PA : mem_str nm_paragraph (c_rules cfg) = true) :
  forall fuel st line el hel,
  RI N st -> TI st -> CI st -> 0 <= line -> line <= b_lineMax st -> el <= b_lineMax st ->
  nrq (tok_loop cfg rf cf fuel rec st line el hel) (tabs_eq st).
Proof.
  induction fuel as [|f IH]; intros st line el hel R HT HC L0 L1 L2; [apply nrq_oof|].
  rewrite tok_loop_round.
  destruct (negb (line <? el)) eqn:NE; [apply nrq_ok; apply tabs_eq_refl|].
  apply nrq_bind_nr; [apply (tok_head_nr N); assumption|]. intros [l go] HD.
  destruct (tok_head_run cfg _ _ _ _ _ HD ltac:(lia) L1 L2) as (B & EQ & G).
  destruct go; [|apply nrq_ok; repeat split]. destruct EQ as [EQ|[X _]]; [|discriminate X].
  assert (NEl : nonempty (st_line st l) l).
  { apply (nonempty_tabs st); [repeat split|]. apply is_empty_false_nonempty. rewrite EQ. apply skip_empty_nonempty; [lia|]. rewrite <- EQ. lia. }
  assert (P1 : pre2 N (st_line st l) l el) by (split; [exact R | cbn; lia]).
  apply (nrq_bind _ _ (tabs_eq (st_line st l))); [exact (try_rules_r N rec RN RC TNO (c_rules cfg) (st_line st l) l el P1 HT HC eq_refl NEl)|].
  intros st2 TR T2.
  destruct (proj2 (tok_round_m cfg rf cf rec RC (term_names_silent TNO) PA _ _ _ _ HD ltac:(lia) L0 L1 L2 HT) _ TR) as ((A1 & A2 & _) & NXT).
  cbn [b_lineMax st_line set] in A1, A2.
  apply nrq_bind_nr; [apply (tok_next_nr N); [exact (tabs_eq_RI _ _ _ (T2 : tabs_eq st st2) R) | lia | lia]|]. intros [l' hel'] NX. pose proof (NXT _ _ _ NX) as Bl.
  match goal with |- nrq (tok_loop _ _ _ _ _ ?s _ _ _) _ => assert (T4 : tabs_eq st s) by exact T2 end.
  pose proof (tabs_eq_lineMax _ _ T4) as LM4.
  apply (nrq_tabs _ _ _ (fun s => s) T4).
  apply IH; [exact (tabs_eq_RI _ _ _ T4 R) | exact (tabs_eq_TI _ _ T4 HT) | exact (tabs_eq_CI _ _ T4 HC) | lia | lia | lia].
Qed.

Lemma tokenize_rec_n N (TNO : term_names_ok) (PA : mem_str nm_paragraph (c_rules cfg) = true) :
  forall d, rec_n N (tokenize cfg rf cf d).
Proof.
  induction d as [|d IH]; intros st a b R HT HC A0 AB BL; [split; [apply nr_oof | discriminate]|].
  cbn [tokenize].
  pose proof (tokenize_rec_c cfg rf cf (term_names_silent TNO) PA d) as RC.
  destruct (tok_loop_r N _ IH RC TNO PA (S (S (Z.to_nat (b - a)))) st a b false R HT HC A0 ltac:(lia) BL) as [A B].
  split; [exact A|]. intros st' H. split; [exact (B st' H)|].
  destruct (tokenize_rec_c cfg rf cf (term_names_silent TNO) PA (S d) st a b st' H A0 AB BL HT) as (_ & C2 & _). exact C2.
Qed.

End Loop.

(* where the CI of a fresh state comes from: the scan of StateBlock.__init__ counts the columns of the indentation as
   getLines does *)
Lemma state_init_gcols src env toks : fresh_rows src (fun b p s => s = gcols src b p 0 0) (state_init src env toks).
Proof.
  apply state_init_rows; [intros b; rewrite gcols_end by lia; reflexivity|].
  intros b p s c Hb -> Ec Sp. assert (P0 : 0 <= p) by lia.
  rewrite (gcols_split src 0 (p + 1) p _ b 0 eq_refl) by lia.
  rewrite (gcols_step src p (p + 1)), (py_idx_char_at src p c P0 Ec), Sp, (gcols_end src (p + 1) (p + 1)), Z.add_0_r by lia. reflexivity.
Qed.

Theorem state_init_RI src env toks : RI (b_lineMax (state_init src env toks)) (state_init src env toks).
Proof.
  destruct (state_init_gcols src env toks) as (L & Hb & He & Ht & Hs & Hbs & LL & LM & F & LAST).
  assert (LC : forall f : srow -> Z, len (map f L) = b_lineMax (state_init src env toks) + 1) by (intros f; unfold len in *; rewrite map_length; exact LL).
  unfold RI. change (b_src (state_init src env toks)) with src. rewrite Hb, He, Ht, Hs, Hbs. split; [lia|]. do 5 (split; [apply LC|]).
  intros l b e t Hl Eb Ee Et. destruct (tb_map3 _ _ _ _ _ _ _ _ (proj1 Hl) Eb Ee Et) as (w & Nw & -> & -> & ->).
  rewrite Forall_forall in F. destruct (F w (nth_error_In _ _ Nw)) as (B0 & T0 & BE & _ & LF & NB & _).
  unfold row_ok. split; [exact B0|]. split; [lia|]. split; [lia|]. split; [|split; [exact LF | exact NB]].
  intros HL. apply (LAST _ _ Nw). lia.
Qed.

Theorem state_init_CI src env toks : CI (state_init src env toks).
Proof.
  destruct (state_init_gcols src env toks) as (L & Hb & _ & Ht & Hs & Hbs & _ & _ & F & _).
  unfold CI. change (b_src (state_init src env toks)) with src. rewrite Hb, Ht, Hs, Hbs.
  intros l b t sc bs Hl Eb Et Es Ebs. destruct (tb_map3 _ _ _ _ _ _ _ _ (proj1 Hl) Eb Et Es) as (w & Nw & -> & -> & ->).
  destruct (tb_map _ _ _ _ Ebs) as (_ & _ & ->).
  rewrite Forall_forall in F. destruct (F w (nth_error_In _ _ Nw)) as (_ & _ & _ & _ & _ & _ & _ & ->). lia.
Qed.

Theorem block_parse_no_raise cfg rf cf src env toks :
  term_names_ok cfg -> mem_str nm_paragraph (c_rules cfg) = true ->
  nr (block_parse cfg rf cf src env toks).
Proof.
  intros TNO PA. unfold block_parse.
  destruct src as [|c src0]; [apply nr_ok|].
  set (st0 := state_init (c :: src0) env toks).
  pose proof (state_init_RI (c :: src0) env toks) as R. pose proof (state_init_TI (c :: src0) env toks) as HT.
  pose proof (state_init_CI (c :: src0) env toks) as HC. fold st0 in R, HT, HC.
  assert (B0 : b_line st0 = 0) by reflexivity. rewrite B0.
  destruct (Z.eq_dec (b_lineMax st0) 0) as [Z0|NZ].
  - rewrite Z0. cbn [tokenize Z.to_nat Z.sub tok_loop]. change (negb (0 <? 0)) with true. cbv iota. apply nr_ok.
  - assert (LM : 0 <= b_lineMax st0) by (destruct R as [LM _]; lia).
    destruct (tokenize_rec_n cfg rf cf (b_lineMax st0) TNO PA (S (S (Z.to_nat (c_maxNesting cfg)))) st0 0 (b_lineMax st0) R HT HC ltac:(lia) ltac:(lia) ltac:(lia)) as [A _].
    exact A.
Qed.

From MD Require Import Model.Ruler.
Definition no_silent_or_ref (n : str) : bool := no_silent_mode n || str_eqb n nm_reference.
Definition alts_ok2 (rs : list (@rule str)) : bool :=
  forallb (fun r => if no_silent_or_ref (rfn r) then match ralt r with [] => true | _ => false end else true) rs.

Theorem ruler_cfg_term_names_ok (rs : list (@rule str)) code mn html defs :
  alts_ok2 rs = true -> term_names_ok (mkBCfg (compile_chain rs []) (compile_chain rs) code mn html defs).
Proof.
  intros A ch n CN H. pose proof (compiled_alt no_silent_or_ref rs A ch n CN H) as E. unfold no_silent_or_ref, no_silent_mode in E.
  apply Bool.orb_false_iff in E. destruct E as [E E4]. apply Bool.orb_false_iff in E. destruct E as [E E3].
  apply Bool.orb_false_iff in E. destruct E as [E1 E2]. repeat split; assumption.
Qed.
