(* C01 -- parsing and rendering are total.  Component theorems proved so far; the
   whole-pipeline statement [pipeline_total] is written out and is NOT yet a theorem: per-rule
   safety is carried by the model-vs-implementation comparison of exception classes (the model
   raises exactly where an unguarded read of the Python would).  Only statements and [exact]. *)
From MD Require Import Base.Py Model.Utils Model.Render Model.StateBlock Model.Block Model.Inline Model.Pipeline
     Lemmas.TotalLemmas Lemmas.InlineLemmas Lemmas.ScanLemmas.

(* the statement of the property on the model (full strength; proved only in parts below) *)
Definition pipeline_total_statement : Prop :=
  forall cfg rf cf lt src env,
    In nm_paragraph (c_rules (p_block cfg)) -> In n_text (ic_rules (p_inline cfg)) ->
    1 <= c_maxNesting (p_block cfg) <= 100 -> 1 <= ic_maxNesting (p_inline cfg) <= 100 ->
    p_linkify cfg = false ->
    (exists r, parse cfg rf cf lt src env = Ok r) /\ (exists r, parse_inline cfg rf cf lt src env = Ok r).

(* chr() cannot raise: a code point the entity rule accepts is a Unicode scalar value *)
Theorem C01_entity_chr_safe :
  forall c, 0 <= c -> is_valid_entity_code c = true -> c <= 1114111 /\ ~ (55296 <= c <= 57343).
Proof. exact entity_chr_safe. Qed.
Print Assumptions C01_entity_chr_safe.

Theorem C01_entity_codes_nonneg : forall s, 0 <= int_of_hex s.
Proof. exact int_of_hex_nonneg. Qed.
Print Assumptions C01_entity_codes_nonneg.

(* the renderer returns normally on every stream in which no fence carries a non-string class
   attribute (the parser never sets one): its only raising site is attrJoin *)
Theorem C01_render_total :
  forall o l p, Forall class_ok_top l -> exists r, render_list o p l = Ok r.
Proof. exact render_total. Qed.
Print Assumptions C01_render_total.

(* nesting beyond maxNesting is cut off rather than recursed into: the inline skipper jumps to
   the end of the paragraph *)
Theorem C01_skip_token_cap :
  forall cfg rf cf lt F st,
    zlookup (i_pos st) (i_cache st) = None -> ic_maxNesting cfg <= i_level st ->
    exists st', skip_token cfg rf cf lt F st = Ok st' /\ i_pos st' = i_posMax st + 1.
Proof. exact skip_token_cap. Qed.
Print Assumptions C01_skip_token_cap.

(* table reads inside the table never raise *)
Theorem C01_table_read_in_range : forall l i, 0 <= i < len l -> exists v, tb l i = Ok v.
Proof. exact tb_in_range. Qed.
Print Assumptions C01_table_read_in_range.

(* a fresh StateBlock: every read of the five line tables at a line in [0, lineMax] succeeds,
   for every source *)
Theorem C01_fresh_tables_readable :
  forall src env toks line,
    let s := state_init src env toks in
    0 <= line <= b_lineMax s ->
    exists b e t c bs, tb (b_bMarks s) line = Ok b /\ tb (b_eMarks s) line = Ok e /\ tb (b_tShift s) line = Ok t
                       /\ tb (b_sCount s) line = Ok c /\ tb (b_bsCount s) line = Ok bs.
Proof. exact state_init_reads_ok. Qed.
Print Assumptions C01_fresh_tables_readable.

(* ---- the block line loop makes progress ------------------------------------------------- *)
From MD Require Import Lemmas.MapWhole.

(* One pass over the rule chain at line sl (the body of ParserBlock.tokenize's while loop), in any
   state whose tables satisfy the invariant, for any chain that contains the paragraph rule:
   some rule succeeds and the cursor ends strictly after sl and inside the line table - the
   loop cannot spin, and "none of the block rules matched" cannot happen.  (What is excluded by
   hypothesis is an exception or fuel exhaustion INSIDE a rule: try_rules = Ok.) *)
Theorem C01_block_loop_progress :
  forall cfg rf cf rec, rec_c rec -> silent_terms cfg ->
  forall names st sl el st',
    try_rules cfg rf cf rec names st sl el = Ok st' -> pre st sl el -> mem_str nm_paragraph names = true ->
    step_ok st sl st'.
Proof. exact try_rules_m. Qed.
Print Assumptions C01_block_loop_progress.

(* the nested tokenize (block quote / list item bodies) makes progress as well whenever its first
   line is blank or indented at least to the block indent: containers never produce an empty map
   and never loop *)
Theorem C01_nested_tokenize_progress :
  forall cfg rf cf, silent_terms cfg -> mem_str nm_paragraph (c_rules cfg) = true ->
  forall d st a b st',
    tokenize cfg rf cf d st a b = Ok st' -> 0 <= a -> a < b -> b <= b_lineMax st -> TI st ->
    a <= b_line st' <= b_lineMax st /\ (first_ok st a -> a < b_line st').
Proof.
  intros cfg rf cf ST PA d st a b st' H A0 AB BL HT.
  exact (let '(conj _ (conj C2 (conj _ (conj _ (conj _ (conj _ C7)))))) := tokenize_rec_c cfg rf cf ST PA d st a b st' H A0 AB BL HT in conj C2 C7).
Qed.
Print Assumptions C01_nested_tokenize_progress.

(* ---- the block parser never raises ---------------------------------------------------------- *)
From MD Require Import Model.Ruler Lemmas.NoRaise Lemmas.NoFuel Gen.Rules.

(* For EVERY source, env and token list, and every configuration (options.html on or off, any
   maxNesting, any enabled subset) that has the paragraph rule and whose named terminator chains hold only silent-capable rules other than
   `reference` (true of every Ruler-compiled configuration of the generated rule table):
   ParserBlock.parse does not raise - no IndexError from a line-table read, none from an
   unguarded src[...] read, no exception of any other kind the model can produce.  (It may still
   be cut short by the model's fuel in inner scans - never by the line loop, see C20 - which is not
   an exception.)  The proof carries a table invariant through all 11 rules: table lengths, marks
   inside the source, a line feed at every end mark but the last line's, a non-blank at the logical
   start of a non-empty line; block quote and list rewrites keep it and their restores give back
   the ORIGINAL tables literally.  A second invariant (CI) bounds every sCount entry by the columns
   getLines itself counts over the line's leading blanks (gcols), through block quote and list
   rewrites; it is what makes html_block's getLines(..., blkIndent, True) safe on a blank last line
   inside containers. *)
Theorem C01_block_parse_never_raises :
  forall cfg rf cf src env toks,
    term_names_ok cfg -> mem_str nm_paragraph (c_rules cfg) = true ->
    forall e, block_parse cfg rf cf src env toks <> Raise e.
Proof. exact block_parse_no_raise. Qed.
Print Assumptions C01_block_parse_never_raises.

(* ---- the block parser is total ---------------------------------------------------------------- *)
(* The block model can answer OutOfFuel in six places: the paragraph-like continuation scan, the
   block quote line loop, the list item loop, the table body loop, the line loop of tokenize (fuel
   computed from the line range) and the container depth of tokenize (fuel maxNesting + 2).  None
   of them is ever reached: every loop consumes a line per iteration, and a nested tokenize is only
   entered below the maxNesting cut-off with the level strictly larger than its caller's. *)
Theorem C01_block_parse_fuel_suffices :
  forall cfg rf cf src env toks,
    term_names_ok cfg -> mem_str nm_paragraph (c_rules cfg) = true ->
    block_parse cfg rf cf src env toks <> OutOfFuel.
Proof. exact block_parse_fuel. Qed.
Print Assumptions C01_block_parse_fuel_suffices.

(* hence: for EVERY source, env, token list and configuration, ParserBlock.parse returns a state *)
Theorem C01_block_parse_total :
  forall cfg rf cf src env toks,
    term_names_ok cfg -> mem_str nm_paragraph (c_rules cfg) = true ->
    exists st, block_parse cfg rf cf src env toks = Ok st.
Proof. exact block_parse_total. Qed.
Print Assumptions C01_block_parse_total.


(* ---- the inner scans: no answer depends on a fuel constant ------------------------------------- *)
From MD Require Import Model.Helpers Lemmas.FuelAdequate.
(* The inner scans of the block model answer with an ordinary value when their loop-local fuel is
   used up.  Above a bound computed from the arguments (the distance the scan can still travel)
   the answer is the same for every fuel; the fuel passed at each call site (S (length src) for a
   scan over the source with 0 <= pos and maximum <= len src, S (endLine - startLine) for a scan
   over lines, 8 for the heading level, 12 for the ordered-list digits) lies above it. *)
Theorem C01_skip_empty_lines_fuel : forall f1 f2 st from, (Z.to_nat (b_lineMax st - from) < f1)%nat -> (Z.to_nat (b_lineMax st - from) < f2)%nat -> skip_empty_lines f1 st from = skip_empty_lines f2 st from.
Proof. exact skip_empty_lines_fuel. Qed.
Print Assumptions C01_skip_empty_lines_fuel.
Theorem C01_skip_while_fuel : forall p, forall f1 f2 src pos, (Z.to_nat (len src - pos) < f1)%nat -> (Z.to_nat (len src - pos) < f2)%nat -> skip_while f1 p src pos = skip_while f2 p src pos.
Proof. exact skip_while_fuel. Qed.
Print Assumptions C01_skip_while_fuel.
Theorem C01_skip_back_fuel : forall p, forall f1 f2 src pos mn, (Z.to_nat (pos - mn) < f1)%nat -> (Z.to_nat (pos - mn) < f2)%nat -> skip_back f1 p src pos mn = skip_back f2 p src pos mn.
Proof. exact skip_back_fuel. Qed.
Print Assumptions C01_skip_back_fuel.
Theorem C01_gl_scan_fuel : forall f1 f2 src first last ls li ind ts bs, (Z.to_nat (last - first) < f1)%nat -> (Z.to_nat (last - first) < f2)%nat -> gl_scan f1 src first last ls li ind ts bs = gl_scan f2 src first last ls li ind ts bs.
Proof. exact gl_scan_fuel. Qed.
Print Assumptions C01_gl_scan_fuel.
Theorem C01_get_lines_loop_fuel : forall f1 f2 st line endl indent keep, (Z.to_nat (endl - line) < f1)%nat -> (Z.to_nat (endl - line) < f2)%nat -> get_lines_loop f1 st line endl indent keep = get_lines_loop f2 st line endl indent keep.
Proof. exact get_lines_loop_fuel. Qed.
Print Assumptions C01_get_lines_loop_fuel.
Theorem C01_code_scan_fuel : forall cfg, forall f1 f2 st nl el last, (Z.to_nat (el - nl) < f1)%nat -> (Z.to_nat (el - nl) < f2)%nat -> code_scan cfg f1 st nl el last = code_scan cfg f2 st nl el last.
Proof. exact code_scan_fuel. Qed.
Print Assumptions C01_code_scan_fuel.
Theorem C01_fence_scan_fuel : forall cfg, forall f1 f2 st nl el mk ln, (Z.to_nat (el - nl) < f1)%nat -> (Z.to_nat (el - nl) < f2)%nat -> fence_scan cfg f1 st nl el mk ln = fence_scan cfg f2 st nl el mk ln.
Proof. exact fence_scan_fuel. Qed.
Print Assumptions C01_fence_scan_fuel.
Theorem C01_hr_scan_fuel : forall f1 f2 src pos mx mk cnt, (Z.to_nat (mx - pos) < f1)%nat -> (Z.to_nat (mx - pos) < f2)%nat -> hr_scan f1 src pos mx mk cnt = hr_scan f2 src pos mx mk cnt.
Proof. exact hr_scan_fuel. Qed.
Print Assumptions C01_hr_scan_fuel.
Theorem C01_heading_level_fuel : forall f1 f2 src pos mx level, (Z.to_nat (7 - level) < f1)%nat -> (Z.to_nat (7 - level) < f2)%nat -> heading_level f1 src pos mx level = heading_level f2 src pos mx level.
Proof. exact heading_level_fuel. Qed.
Print Assumptions C01_heading_level_fuel.
Theorem C01_html_scan_fuel : forall f1 f2 st closer nl el, (Z.to_nat (el - nl) < f1)%nat -> (Z.to_nat (el - nl) < f2)%nat -> html_scan f1 st closer nl el = html_scan f2 st closer nl el.
Proof. exact html_scan_fuel. Qed.
Print Assumptions C01_html_scan_fuel.
Theorem C01_ref_prescan_fuel : forall f1 f2 src pos mx, (Z.to_nat (mx - pos) < f1)%nat -> (Z.to_nat (mx - pos) < f2)%nat -> ref_prescan f1 src pos mx = ref_prescan f2 src pos mx.
Proof. exact ref_prescan_fuel. Qed.
Print Assumptions C01_ref_prescan_fuel.
Theorem C01_ref_label_fuel : forall f1 f2 s pos mx lines, (Z.to_nat (mx - pos) < f1)%nat -> (Z.to_nat (mx - pos) < f2)%nat -> ref_label f1 s pos mx lines = ref_label f2 s pos mx lines.
Proof. exact ref_label_fuel. Qed.
Print Assumptions C01_ref_label_fuel.
Theorem C01_skip_ws_nl_fuel : forall f1 f2 s pos mx lines, (Z.to_nat (mx - pos) < f1)%nat -> (Z.to_nat (mx - pos) < f2)%nat -> skip_ws_nl f1 s pos mx lines = skip_ws_nl f2 s pos mx lines.
Proof. exact skip_ws_nl_fuel. Qed.
Print Assumptions C01_skip_ws_nl_fuel.
Theorem C01_skip_sp_fuel : forall f1 f2 s pos mx, (Z.to_nat (mx - pos) < f1)%nat -> (Z.to_nat (mx - pos) < f2)%nat -> skip_sp f1 s pos mx = skip_sp f2 s pos mx.
Proof. exact skip_sp_fuel. Qed.
Print Assumptions C01_skip_sp_fuel.
Theorem C01_bq_blanks_fuel : forall f1 f2 src pos mx off bs adj, (Z.to_nat (mx - pos) < f1)%nat -> (Z.to_nat (mx - pos) < f2)%nat -> bq_blanks f1 src pos mx off bs adj = bq_blanks f2 src pos mx off bs adj.
Proof. exact bq_blanks_fuel. Qed.
Print Assumptions C01_bq_blanks_fuel.
Theorem C01_ordered_digits_fuel : forall f1 f2 src start pos mx, (Z.to_nat (start + 10 - pos) < f1)%nat -> (Z.to_nat (start + 10 - pos) < f2)%nat -> ordered_digits f1 src start pos mx = ordered_digits f2 src start pos mx.
Proof. exact ordered_digits_fuel. Qed.
Print Assumptions C01_ordered_digits_fuel.
Theorem C01_mark_tight_fuel : forall f1 f2 tokens i length level, (Z.to_nat (length - i) < f1)%nat -> (Z.to_nat (length - i) < f2)%nat -> mark_tight f1 tokens i length level = mark_tight f2 tokens i length level.
Proof. exact mark_tight_fuel. Qed.
Print Assumptions C01_mark_tight_fuel.
Theorem C01_list_blanks_fuel : forall f1 f2 src pos mx off bs, (Z.to_nat (mx - pos) < f1)%nat -> (Z.to_nat (mx - pos) < f2)%nat -> list_blanks f1 src pos mx off bs = list_blanks f2 src pos mx off bs.
Proof. exact list_blanks_fuel. Qed.
Print Assumptions C01_list_blanks_fuel.
Theorem C01_esc_split_fuel : forall f1 f2 s pos mx lastPos esc cur acc, (Z.to_nat (mx - pos) < f1)%nat -> (Z.to_nat (mx - pos) < f2)%nat -> esc_split f1 s pos mx lastPos esc cur acc = esc_split f2 s pos mx lastPos esc cur acc.
Proof. exact esc_split_fuel. Qed.
Print Assumptions C01_esc_split_fuel.
Theorem C01_delim_chars_fuel : forall f1 f2 src pos mx, (Z.to_nat (mx - pos) < f1)%nat -> (Z.to_nat (mx - pos) < f2)%nat -> delim_chars f1 src pos mx = delim_chars f2 src pos mx.
Proof. exact delim_chars_fuel. Qed.
Print Assumptions C01_delim_chars_fuel.
Theorem C01_dest_angle_fuel : forall f1 f2 s start pos mx, (Z.to_nat (mx - pos) < f1)%nat -> (Z.to_nat (mx - pos) < f2)%nat -> dest_angle f1 s start pos mx = dest_angle f2 s start pos mx.
Proof. exact dest_angle_fuel. Qed.
Print Assumptions C01_dest_angle_fuel.
Theorem C01_dest_bare_fuel : forall f1 f2 s pos mx level, (Z.to_nat (mx - pos) < f1)%nat -> (Z.to_nat (mx - pos) < f2)%nat -> dest_bare f1 s pos mx level = dest_bare f2 s pos mx level.
Proof. exact dest_bare_fuel. Qed.
Print Assumptions C01_dest_bare_fuel.
Theorem C01_title_loop_fuel : forall f1 f2 s start pos mx marker lines, (Z.to_nat (mx - pos) < f1)%nat -> (Z.to_nat (mx - pos) < f2)%nat -> title_loop f1 s start pos mx marker lines = title_loop f2 s start pos mx marker lines.
Proof. exact title_loop_fuel. Qed.
Print Assumptions C01_title_loop_fuel.
Theorem C01_src_fuel_above_bound : forall (src : str) pos mx, 0 <= pos -> mx <= len src -> (Z.to_nat (mx - pos) < S (length src))%nat.
Proof. exact src_fuel_above_bound. Qed.
Print Assumptions C01_src_fuel_above_bound.
Theorem C01_line_fuel_above_bound : forall sl el, (Z.to_nat (el - (sl + 1)) < S (Z.to_nat (el - sl)))%nat.
Proof. exact line_fuel_above_bound. Qed.
Print Assumptions C01_line_fuel_above_bound.

(* every rule, the nested tokenize at any depth and the rule loop return with the five line tables,
   the source and lineMax exactly as they were *)
Theorem C01_nested_tokenize_restores_tables :
  forall cfg rf cf N, term_names_ok cfg -> mem_str nm_paragraph (c_rules cfg) = true ->
  forall d, rec_n N (tokenize cfg rf cf d).
Proof. exact tokenize_rec_n. Qed.
Print Assumptions C01_nested_tokenize_restores_tables.

Theorem C01_fresh_tables_invariant :
  forall src env toks, RI (b_lineMax (state_init src env toks)) (state_init src env toks).
Proof. exact state_init_RI. Qed.
Print Assumptions C01_fresh_tables_invariant.

Theorem C01_fresh_tables_columns :
  forall src env toks, CI (state_init src env toks).
Proof. exact state_init_CI. Qed.
Print Assumptions C01_fresh_tables_columns.

Theorem C01_ruler_cfg_term_names_ok :
  forall (rs : list (@rule str)) code mn html defs,
    alts_ok2 rs = true -> term_names_ok (mkBCfg (compile_chain rs []) (compile_chain rs) code mn html defs).
Proof. exact ruler_cfg_term_names_ok. Qed.
Print Assumptions C01_ruler_cfg_term_names_ok.

(* the hypotheses hold for the generated rule table *)
Example C01_registry_alts_ok2 :
  alts_ok2 (map (fun na => mkRule (fst na) true (fst na) (snd na)) block_registry) = true.
Proof. vm_compute. reflexivity. Qed.

(* ---- the inline parser and the whole pipeline never raise ------------------------------------- *)
From MD Require Import Base.Regex Model.Inline Model.Pipeline Lemmas.InlineSafe Lemmas.ParseSafe.

(* For EVERY source, env and token list and every configuration with the (absent) linkifier off
   whose post-processing chain is in registration order (nothing that reads delimiters runs
   after fragments_join): ParserInline.parse never raises.  No IndexError from an unguarded
   src[pos] read in any of the 12 inline rules, in skipToken or in the tokenizer loop; none from
   push() popping the delimiter stack on a closing token; none from delimiters / jumps / tokens
   index reads in balance_pairs and in the strikethrough and emphasis post-processing; through
   the nested tokenize of link text and the nested parse of image descriptions at any depth.
   Invariants: 0 <= pos, posMax <= len src; every delimiter points at an existing token; the
   skipToken memo holds positions; the regex engine only moves forward; the jump table of
   balance_pairs has 0 <= jumps[i] <= i; matched delimiters point at valid partners. *)
Theorem C01_inline_parse_never_raises :
  forall cfg rf cf lt, ic_linkify cfg = false -> order_ok (ic_rules2 cfg) = true ->
  forall src env tokens e, inline_parse cfg rf cf lt src env tokens <> Raise e.
Proof. exact inline_parse_no_raise. Qed.
Print Assumptions C01_inline_parse_never_raises.

(* the order hypothesis holds for every chain a Ruler compiles from a rule list in that order,
   whatever is enabled; and the generated rule table is in that order *)
Theorem C01_ruler_chain_order_ok :
  forall rs : list (@rule str), order_ok (map rfn rs) = true -> order_ok (compile_chain rs []) = true.
Proof. exact ruler_chain_order_ok. Qed.
Print Assumptions C01_ruler_chain_order_ok.
Example C01_registry_order_ok : order_ok (map fst inline2_registry) = true.
Proof. vm_compute. reflexivity. Qed.

(* balance_pairs alone: for any delimiter list whose entries point into N tokens, processDelimiters
   does not raise, keeps the length, and leaves every end index -1 or inside the list *)
Theorem C01_process_delimiters_safe :
  forall N ds, Forall (DQ N (len ds)) ds ->
  safe (process_delimiters ds) (fun ds' => len ds' = len ds /\ Forall (DQ N (len ds)) ds').
Proof. exact process_delimiters_safe. Qed.
Print Assumptions C01_process_delimiters_safe.

(* the regular-expression engine only moves forward *)
Theorem C01_regex_match_moves_forward : forall r st e, match_at r st = Some e -> m_pos st <= m_pos e.
Proof. exact match_at_ge. Qed.
Print Assumptions C01_regex_match_moves_forward.

(* MarkdownIt.parse / parseInline: block parser, inline parser and the core chain composed *)
Theorem C01_parse_never_raises :
  forall cfg rf cf lt,
    term_names_ok (p_block cfg) -> mem_str nm_paragraph (c_rules (p_block cfg)) = true ->
    ic_linkify (p_inline cfg) = false -> p_linkify cfg = false -> order_ok (ic_rules2 (p_inline cfg)) = true ->
  forall src env e, parse cfg rf cf lt src env <> Raise e.
Proof. exact parse_no_raise. Qed.
Print Assumptions C01_parse_never_raises.

Theorem C01_parse_inline_never_raises :
  forall cfg rf cf lt,
    term_names_ok (p_block cfg) -> mem_str nm_paragraph (c_rules (p_block cfg)) = true ->
    ic_linkify (p_inline cfg) = false -> p_linkify cfg = false -> order_ok (ic_rules2 (p_inline cfg)) = true ->
  forall src env e, parse_inline cfg rf cf lt src env <> Raise e.
Proof. exact parse_inline_no_raise. Qed.
Print Assumptions C01_parse_inline_never_raises.

(* ---- the inline tokenizer makes progress ------------------------------------------------------ *)
From MD Require Import Lemmas.InlineProgress.

(* a rule that succeeds moves the position forward, one that fails leaves it where it was - for
   every rule list, at every recursion depth (so the tokenizer loop cannot spin) *)
Theorem C01_inline_rule_progress :
  forall cfg rf cf lt, ic_linkify cfg = false -> order_ok (ic_rules2 cfg) = true ->
  forall d names st silent bump ok st', PI st -> i_pos st < i_posMax st ->
  first_rule cfg rf cf lt (ifs cfg rf cf lt d) names st silent bump = Ok (ok, st') ->
  if ok then i_pos st < i_pos st' else i_pos st' = i_pos st.
Proof. exact first_rule_progress. Qed.
Print Assumptions C01_inline_rule_progress.

(* the tokenizer loop and the link-label loop: above posMax - pos the answer does not depend on the
   fuel; the fuel they are called with (len src + 2) lies above that *)
Theorem C01_tokenizer_loop_fuel_independent :
  forall cfg rf cf lt, ic_linkify cfg = false -> order_ok (ic_rules2 cfg) = true ->
  forall d f1 f2 st, PI st ->
  (Z.to_nat (i_posMax st - i_pos st) < f1)%nat -> (Z.to_nat (i_posMax st - i_pos st) < f2)%nat ->
  tok_while cfg rf cf lt f1 (ifs cfg rf cf lt d) st (i_posMax st) false = tok_while cfg rf cf lt f2 (ifs cfg rf cf lt d) st (i_posMax st) false.
Proof. exact tok_while_fuel_any_depth. Qed.
Print Assumptions C01_tokenizer_loop_fuel_independent.

Theorem C01_label_loop_fuel_independent :
  forall cfg rf cf lt, ic_linkify cfg = false -> order_ok (ic_rules2 cfg) = true ->
  forall d f1 f2 st level dn oldPos, PI st ->
  (Z.to_nat (i_posMax st - i_pos st) < f1)%nat -> (Z.to_nat (i_posMax st - i_pos st) < f2)%nat ->
  label_loop (ifs cfg rf cf lt d) f1 st level dn oldPos = label_loop (ifs cfg rf cf lt d) f2 st level dn oldPos.
Proof. exact label_loop_fuel_any_depth. Qed.
Print Assumptions C01_label_loop_fuel_independent.

Theorem C01_tokenize_fuel_above_bound :
  forall st, PI st -> (Z.to_nat (i_posMax st - i_pos st) < S (S (length (i_src st))))%nat.
Proof. exact tokenize_fuel_above. Qed.
Print Assumptions C01_tokenize_fuel_above_bound.

(* a regular expression that cannot match the empty string (a conservative syntactic test) moves the
   cursor; the three expressions the inline rules advance by pass the test *)
Theorem C01_regex_nonempty_moves :
  forall r st e, nonempty r = true -> match_at r st = Some e -> m_pos st < m_pos e.
Proof. exact match_at_gt. Qed.
Print Assumptions C01_regex_nonempty_moves.

(* ---- render and renderInline never raise ------------------------------------------------------ *)
From MD Require Import Lemmas.BlockKinds Lemmas.RenderSafe.

(* what parse returns meets the renderer's precondition: no token carries an integer "class"
   attribute (the vocabulary of every block rule says so) and no child of an inline token is a fence *)
Theorem C01_parse_output_renderable :
  forall cfg rf cf lt, chains_sub (p_block cfg) ->
  forall src env ts env', parse cfg rf cf lt src env = Ok (ts, env') -> Forall fence_ok_top ts.
Proof. exact parse_renderable. Qed.
Print Assumptions C01_parse_output_renderable.

(* the renderer returns on every such stream (its only raising site is attrJoin on a fence) *)
Theorem C01_render_total_on_parser_output :
  forall o l p, Forall fence_ok_top l -> exists r, render_list o p l = Ok r.
Proof. exact render_total'. Qed.
Print Assumptions C01_render_total_on_parser_output.

(* hence MarkdownIt.render / renderInline never raise: for every source and env, and every
   configuration with the paragraph rule, Ruler-shaped chains, the absent linkifier off and the
   post-processing chain in registration order - whatever the html / typographer / renderer options *)
Theorem C01_render_never_raises :
  forall cfg rf cf lt, chains_sub (p_block cfg) ->
    term_names_ok (p_block cfg) -> mem_str nm_paragraph (c_rules (p_block cfg)) = true ->
    ic_linkify (p_inline cfg) = false -> p_linkify cfg = false -> order_ok (ic_rules2 (p_inline cfg)) = true ->
  forall src env e, render_md cfg rf cf lt src env <> Raise e.
Proof. exact render_md_no_raise. Qed.
Print Assumptions C01_render_never_raises.

Theorem C01_render_inline_never_raises :
  forall cfg rf cf lt, chains_sub (p_block cfg) ->
    term_names_ok (p_block cfg) -> mem_str nm_paragraph (c_rules (p_block cfg)) = true ->
    ic_linkify (p_inline cfg) = false -> p_linkify cfg = false -> order_ok (ic_rules2 (p_inline cfg)) = true ->
  forall src env e, render_inline_md cfg rf cf lt src env <> Raise e.
Proof. exact render_inline_md_no_raise. Qed.
Print Assumptions C01_render_inline_never_raises.

(* ---- the inner scans of the inline model: no answer depends on a fuel constant ------------------ *)
From MD Require Import Lemmas.InlineFuel.
(* companion of the block-model theorems above; the opener search of balance_pairs needs the jump
   table invariant (0 <= jumps[i] <= i) that C01_process_delimiters_safe maintains *)
Theorem C01_inline_run_len_fuel : forall f1 f2 src pos mx m, (Z.to_nat (mx - pos) < f1)%nat -> (Z.to_nat (mx - pos) < f2)%nat -> run_len f1 src pos mx m = run_len f2 src pos mx m.
Proof. exact run_len_fuel. Qed.
Print Assumptions C01_inline_run_len_fuel.
Theorem C01_inline_skip_sp_fwd_fuel : forall f1 f2 src pos mx, (Z.to_nat (mx - pos) < f1)%nat -> (Z.to_nat (mx - pos) < f2)%nat -> skip_sp_fwd f1 src pos mx = skip_sp_fwd f2 src pos mx.
Proof. exact skip_sp_fwd_fuel. Qed.
Print Assumptions C01_inline_skip_sp_fwd_fuel.
Theorem C01_inline_ws_tail_fuel : forall f1 f2 pending ws, (Z.to_nat ws < f1)%nat -> (Z.to_nat ws < f2)%nat -> ws_tail f1 pending ws = ws_tail f2 pending ws.
Proof. exact ws_tail_fuel. Qed.
Print Assumptions C01_inline_ws_tail_fuel.
Theorem C01_inline_skip_ws_nl_i_fuel : forall f1 f2 src pos mx, (Z.to_nat (mx - pos) < f1)%nat -> (Z.to_nat (mx - pos) < f2)%nat -> skip_ws_nl_i f1 src pos mx = skip_ws_nl_i f2 src pos mx.
Proof. exact skip_ws_nl_i_fuel. Qed.
Print Assumptions C01_inline_skip_ws_nl_i_fuel.
Theorem C01_inline_autolink_end_fuel : forall f1 f2 src pos mx, (Z.to_nat (mx - pos) < f1)%nat -> (Z.to_nat (mx - pos) < f2)%nat -> autolink_end f1 src pos mx = autolink_end f2 src pos mx.
Proof. exact autolink_end_fuel. Qed.
Print Assumptions C01_inline_autolink_end_fuel.
Theorem C01_inline_count_s_close_fuel : forall f1 f2 tokens j, (Z.to_nat (len tokens - j) < f1)%nat -> (Z.to_nat (len tokens - j) < f2)%nat -> count_s_close f1 tokens j = count_s_close f2 tokens j.
Proof. exact count_s_close_fuel. Qed.
Print Assumptions C01_inline_count_s_close_fuel.
Theorem C01_inline_st_pass1_fuel : forall f1 f2 ds tokens i lone, (Z.to_nat (len ds - i) < f1)%nat -> (Z.to_nat (len ds - i) < f2)%nat -> st_pass1 f1 ds tokens i lone = st_pass1 f2 ds tokens i lone.
Proof. exact st_pass1_fuel. Qed.
Print Assumptions C01_inline_st_pass1_fuel.
Theorem C01_inline_em_pass_fuel : forall f1 f2 ds tokens i, (Z.to_nat (i + 1) < f1)%nat -> (Z.to_nat (i + 1) < f2)%nat -> em_pass f1 ds tokens i = em_pass f2 ds tokens i.
Proof. exact em_pass_fuel. Qed.
Print Assumptions C01_inline_em_pass_fuel.
Theorem C01_inline_find_opener_d_fuel : forall ds jumps closer c, JI jumps c -> c <= len ds -> forall f1 f2 o mn, o < c -> -1 <= mn -> (Z.to_nat (o - mn) < f1)%nat -> (Z.to_nat (o - mn) < f2)%nat -> find_opener_d f1 ds jumps closer o mn = find_opener_d f2 ds jumps closer o mn.
Proof. exact find_opener_d_fuel. Qed.
Print Assumptions C01_inline_find_opener_d_fuel.
Theorem C01_inline_pd_loop_fuel : forall f1 f2 ds jumps ob c h lt, (Z.to_nat (len ds - c) < f1)%nat -> (Z.to_nat (len ds - c) < f2)%nat -> pd_loop f1 ds jumps ob c h lt = pd_loop f2 ds jumps ob c h lt.
Proof. exact pd_loop_fuel. Qed.
Print Assumptions C01_inline_pd_loop_fuel.
