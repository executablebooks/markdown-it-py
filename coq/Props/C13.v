(* C13 -- concurrent or nested parses on a shared instance do not interfere.
   Only statements and [exact]. *)
From MD Require Import Base.Py Model.Ruler Model.Conc Lemmas.ConcLemmas.
From MD Require Import Gen.RulerShape.

(* any number of threads, any request programs, any schedule (nested calls are the
   schedules in which the inner thread runs to completion between two steps of the
   outer one), from a fresh or an already compiled instance: no thread fails and
   every getRules returns the complete chain a solo call returns *)
Theorem C13_getRules_linearizable :
  forall (F : Type) (rs : list (rule F)) c programs schedule,
    CacheOK rs c ->
    let w := crun rs false schedule (start c programs) in
    forall t, In t (threads w) ->
      ts t <> TFail /\ forall ch l, In (ch, l) (results t) -> l = compile_chain rs ch.
Proof. exact @getRules_linearizable. Qed.
Print Assumptions C13_getRules_linearizable.

(* the invariant behind it: the shared cache is only ever None or the complete dict *)
Theorem C13_cache_never_partial :
  forall (F : Type) (rs : list (rule F)) schedule w, Inv rs w -> Inv rs (crun rs false schedule w).
Proof. exact @crun_inv. Qed.
Print Assumptions C13_cache_never_partial.

(* no waiting: each own step of a thread brings it closer to completion *)
Theorem C13_wait_free :
  forall (F : Type) (rs : list (rule F)) c t,
    CacheOK rs c -> ThreadOK rs c t -> (0 < steps_left t)%nat ->
    (steps_left (snd (tstep rs false c t)) < steps_left t)%nat.
Proof. intros F rs c t _ [HS _]. exact (tstep_progress rs c t HS). Qed.
Print Assumptions C13_wait_free.

(* publish-then-fill (the code before the repair) is refuted by a 2-thread schedule *)
Theorem C13_legacy_refuted :
  let w := crun race_rules true race_schedule (start None [[[]]; [[]]]) in
  exists t, nth_error (threads w) 1 = Some t /\ results t = [([], [])]
            /\ compile_chain race_rules [] = [1].
Proof. exact race_refuted. Qed.
Print Assumptions C13_legacy_refuted.

(* the atomic actions of the model are those of the code: the accesses to the shared
   cache attribute in the bytecode of Ruler.getRules / Ruler.__compile__ (regenerated
   from /repo on every run) are the ones the step function implements *)
Theorem C13_model_shape_is_code_shape :
  getRules_shape = expected_getRules_shape /\ compile_shape = expected_compile_shape.
Proof. split; reflexivity. Qed.
Print Assumptions C13_model_shape_is_code_shape.

Example C13_nonvacuous :
  let w := crun race_rules false [0; 0; 1; 1; 1; 1; 1; 0; 0; 0]%nat (start None [[[]]; [[]]]) in
  map results (threads w) = [[([], [1])]; [([], [1])]].
Proof. exact race_schedule_fixed. Qed.
