(* C19 -- typographic replacements are local to text and never touch structure or
   literals.  Statements for ALL token lists.  Only statements and [exact]. *)
From MD Require Import Base.Py Base.Str Base.Regex Model.Token Model.Render Model.Core Lemmas.CoreLemmas.

(* replacements: every inline token keeps all its children; only the content of children of
   type text may differ *)
Theorem C19_replacements_shape :
  forall b ts, map erase_inline (replacements b ts) = map erase_inline ts.
Proof. exact replacements_shape. Qed.
Print Assumptions C19_replacements_shape.

(* smartquotes, for every quotes option (any four strings of any length) *)
Theorem C19_smartquotes_shape :
  forall b quotes ts, map erase_inline (smartquotes b quotes ts) = map erase_inline ts.
Proof. exact smartquotes_shape. Qed.
Print Assumptions C19_smartquotes_shape.

Theorem C19_process_inlines_shape :
  forall quotes tokens, map erase_text (process_inlines quotes tokens) = map erase_text tokens.
Proof. exact process_inlines_shape. Qed.
Print Assumptions C19_process_inlines_shape.

(* escapes / entities (text_special), code spans, raw HTML, link tokens with their
   destinations and titles: every token that is not of type text is byte-identical *)
Theorem C19_non_text_untouched :
  forall quotes ch t i,
    nth_error ch i = Some t -> str_eqb (ttype t) s_text = false ->
    nth_error (process_inlines quotes (replace_walk (fun _ => true) replace_scoped_text ch 0)) i = Some t.
Proof. exact typographer_keeps_non_text. Qed.
Print Assumptions C19_non_text_untouched.

(* text_join, which runs after the typographic rules, merges by type only: streams of the
   same shape join to streams of the same shape -- so the final stream has the same shape
   with the typographer on or off *)
Theorem C19_text_join_shape :
  forall lx ly, map erase_text lx = map erase_text ly ->
    map erase_text (join_children lx) = map erase_text (join_children ly).
Proof. exact join_children_shape. Qed.
Print Assumptions C19_text_join_shape.

Theorem C19_typographer_shape :
  forall quotes ch,
    map erase_text (join_children (process_inlines quotes
        (replace_walk (test Gen.Regexes.re_replacements_RARE_RE) replace_rare_text
           (replace_walk (fun _ => true) replace_scoped_text ch 0) 0)))
    = map erase_text (join_children ch).
Proof.
  intros quotes ch. apply join_children_shape.
  rewrite process_inlines_shape, !replace_walk_shape. reflexivity.
Qed.
Print Assumptions C19_typographer_shape.

(* ---- smartquotes only substitutes straight quote characters, in place -------------------------- *)
From MD Require Import Lemmas.QuoteSubst.

(* [qs quotes a b]: b is a with straight quote characters replaced one at a time: each step
   replaces ONE character that is a straight single or double quote at that moment by the
   apostrophe or by an entry of the quotes option.  [QS quotes ch ch']: position by position, the
   content of ch' is related to the content of ch in this way.  For every quotes option (any
   strings, any length, the empty string included) and every token list: whatever smartquotes
   changes in the children of an inline token is such a substitution - all other text stays. *)
Theorem C19_smartquotes_only_substitutes_quotes :
  forall b quotes ts,
  Forall2 (fun t t' => match tchildren t, tchildren t' with
                       | Some ch, Some ch' => QS quotes ch ch' | None, None => True | _, _ => False end)
          ts (smartquotes b quotes ts).
Proof. exact smartquotes_qs. Qed.
Print Assumptions C19_smartquotes_only_substitutes_quotes.

Theorem C19_process_inlines_only_substitutes_quotes :
  forall quotes tokens, QS quotes tokens (process_inlines quotes tokens).
Proof. exact process_inlines_qs. Qed.
Print Assumptions C19_process_inlines_only_substitutes_quotes.

(* a replacement leaves every position to its left alone - why the positions remembered on the
   stack of unmatched openers stay valid when replacement strings have other lengths than one *)
Theorem C19_replace_at_left_untouched :
  forall (s : str) q x p, 0 <= p -> p < q -> q < len s -> char_at (replace_at s q x) p = char_at s p.
Proof. exact replace_at_before. Qed.
Print Assumptions C19_replace_at_left_untouched.

(* ---- the text of autolinks is left alone -------------------------------------------------------------------
   For every quotes option and every children list: process_inlines returns the content of token j unchanged whenever an
   autolink is open at j - the count of  link_open(info = auto)  minus  link_close(info = auto)  over tokens 0..j, computed as
   the loop computes it, is not zero - and whenever token j is not a text token.  (It rewrites only the token it scans and
   tokens whose quotes are on its stack of openers, and it scans text tokens outside autolinks only.) *)
From MD Require Import Lemmas.QuoteAuto.
Theorem C19_autolink_text_untouched :
  forall quotes tokens j,
    depth_after (firstn (S j) tokens) 0 <> 0 -> content_at (process_inlines quotes tokens) j = content_at tokens j.
Proof. exact process_inlines_skips_autolinks. Qed.
Print Assumptions C19_autolink_text_untouched.

Theorem C19_non_text_content_untouched :
  forall quotes tokens j t,
    nth_error tokens j = Some t -> ttype t <> s_text -> content_at (process_inlines quotes tokens) j = content_at tokens j.
Proof. exact process_inlines_skips_non_text. Qed.
Print Assumptions C19_non_text_content_untouched.

(* the shape  link_open(auto), text, link_close(auto)  of  <http://a.b/"c">  meets the hypothesis at the text token *)
Example C19_autolink_shape :
  forall lo u lc, auto_open lo = true -> auto_close lo = false -> auto_open u = false -> auto_close u = false ->
  depth_after (firstn 2 [lo; u; lc]) 0 <> 0.
Proof. exact autolink_depth. Qed.
