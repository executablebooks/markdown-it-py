(* C05 -- emitted link and image URLs are normalised and never carry a dangerous scheme.
   END TO END ON THE MODEL (C05_parse_urls_validated): for EVERY source, every configuration and
   every env whose recorded destinations are themselves validated, each href / src attribute on
   each token parse() returns and on each child of an inline token is empty or equal to
   normalizeLink(x) for some x with validateLink accepting it -- whichever producer made it
   (inline destination, image, autolink, reference taken from env, definition recorded by the
   block parser) -- and the env returned is again of that form; such a URL consists of URL-safe
   ASCII only (C05_good_url_chars).  URL layer: statements for ALL strings; mdurl.parse / format /
   punycode are an arbitrary function [reformat].  Only statements and [exact]. *)
From MD Require Import Base.Py Base.Str Model.Utils Model.Url Model.Pipeline Lemmas.UrlLemmas Lemmas.BlockKinds
     Lemmas.InlineUrls Lemmas.PipelineUrls.

(* every character mdurl.encode emits is a letter, a digit, one of ;/?:@&=+$,-_.!~*'()# or %;
   in particular no blank, control, quote, angle bracket, backslash, backtick, non-ASCII *)
Theorem C05_encode_alphabet : forall s, Forall code_point s -> forallb url_char (encode s) = true.
Proof. exact encode_alphabet. Qed.
Print Assumptions C05_encode_alphabet.

Theorem C05_url_chars_are_inert :
  forall c, url_char c = true ->
    33 <= c < 127 /\ c <> 34 /\ c <> 60 /\ c <> 62 /\ c <> 96 /\ c <> 92 /\ is_py_space c = false.
Proof. exact url_char_facts. Qed.
Print Assumptions C05_url_chars_are_inert.

(* a validated encoded URL, read case-insensitively, never starts with vbscript: javascript:
   file:, and data: only as data:image/gif|png|jpeg|webp; *)
Theorem C05_validated_scheme :
  forall h, forallb url_char h = true -> validate_link h = true ->
  starts_with p_vbscript (lower h) = false /\ starts_with p_javascript (lower h) = false
  /\ starts_with p_file (lower h) = false
  /\ (starts_with p_data (lower h) = true -> good_data (lower h) = true).
Proof. exact validate_scheme. Qed.
Print Assumptions C05_validated_scheme.

(* for every producer that emits normalizeLink(x) only when validateLink accepts it -- and
   whatever the URL re-formatting dependency does *)
Theorem C05_emitted_url_safe :
  forall (reformat : str -> str) url, Forall code_point (reformat url) ->
    let h := normalize_link reformat url in
    validate_link h = true ->
    forallb url_char h = true
    /\ starts_with p_vbscript (lower h) = false /\ starts_with p_javascript (lower h) = false
    /\ starts_with p_file (lower h) = false
    /\ (starts_with p_data (lower h) = true -> good_data (lower h) = true).
Proof. exact emitted_url_safe. Qed.
Print Assumptions C05_emitted_url_safe.

Example C05_nonvacuous :
  encode [106; 97; 118; 97; 32; 233; 37; 52; 49; 34] = [106; 97; 118; 97; 37; 50; 48; 37; 67; 51; 37; 65; 57; 37; 52; 49; 37; 50; 50]
  /\ validate_link [32; 74; 97; 118; 97; 83; 99; 114; 105; 112; 116; 58; 120] = false
  /\ validate_link [100; 97; 116; 97; 58; 105; 109; 97; 103; 101; 47; 112; 110; 103; 59; 120] = true.
Proof. vm_compute. repeat split; reflexivity. Qed.

(* every producer, end to end *)
Theorem C05_parse_urls_validated :
  forall cfg reformat casefold linktext, chains_sub (p_block cfg) ->
  forall src env ts env',
    env_good reformat env ->
    parse cfg reformat casefold linktext src env = Ok (ts, env') ->
    Forall (url_inv reformat) ts /\ env_good reformat env'.
Proof. exact parse_urls_good. Qed.
Print Assumptions C05_parse_urls_validated.

Theorem C05_parse_inline_urls_validated :
  forall cfg reformat casefold linktext, chains_sub (p_block cfg) ->
  forall src env ts env',
    env_good reformat env ->
    parse_inline cfg reformat casefold linktext src env = Ok (ts, env') ->
    Forall (url_inv reformat) ts /\ env_good reformat env'.
Proof. exact parse_inline_urls_good. Qed.
Print Assumptions C05_parse_inline_urls_validated.

(* a good URL is empty or validated, and consists of URL-safe ASCII only *)
Theorem C05_good_url_chars :
  forall reformat, (forall s, Forall code_point (reformat s)) ->
  forall v, gurl reformat v -> forallb url_char v = true.
Proof. exact good_url_chars. Qed.
Print Assumptions C05_good_url_chars.

(* ---- the validator the rules call is the direct definition ---------------------------------------------------
   validateLink is written with two regular expressions (regenerated from /repo on every run and executed by the
   backtracking matcher of Base/Regex.v).  On EVERY string they compute the prefix tests the scheme theorems above speak
   about - so C05_validated_scheme / C05_emitted_url_safe apply to what the rule models actually call. *)
From MD Require Import Base.Regex Gen.Regexes Lemmas.RegexLit.
Theorem C05_bad_proto_regex_is_prefix_test : forall u, test re_normalize_url_BAD_PROTO_RE u = bad_proto u.
Proof. exact bad_proto_re. Qed.
Print Assumptions C05_bad_proto_regex_is_prefix_test.

Theorem C05_good_data_regex_is_prefix_test : forall u, test re_normalize_url_GOOD_DATA_RE u = good_data u.
Proof. exact good_data_re. Qed.
Print Assumptions C05_good_data_regex_is_prefix_test.

Theorem C05_validator_regex_is_direct : forall url, validate_link_re url = validate_link url.
Proof. exact validate_link_re_eq. Qed.
Print Assumptions C05_validator_regex_is_direct.
