(* C03 -- source maps.  Proved for EVERY state (any line tables): each leaf rule (code, fence, hr,
   heading, html_block, paragraph, lheading), when it succeeds, moves the line cursor strictly
   past its start line and not beyond the end line it was given (the paragraph: not beyond
   lineMax), and every token it appends carries a map [b, e) with startLine <= b < e <= new line
   (C03_*_maps).  Containers, tables and definitions, and the
   statement over the block loop is carried by the pipeline correspondence (maps are part of the
   compared token dicts) and the map checker on the implementation.  Only statements and [exact]. *)
From MD Require Import Base.Py Base.Str Model.Token Model.Utils Model.StateBlock Model.Block Lemmas.BlockLemmas
     Lemmas.ScanLemmas Lemmas.MapLemmas.

Theorem C03_hr_map :
  forall cfg st startLine endLine st',
    r_hr cfg st startLine endLine false = Ok (true, st') ->
    b_line st' = startLine + 1 /\
    exists t pos maximum marker,
      b_tokens st' = b_tokens st ++ [t] /\ tmap t = Some (startLine, startLine + 1)
      /\ line_start st startLine = Ok pos /\ tb (b_eMarks st) startLine = Ok maximum
      /\ char_at (b_src st) pos = Some marker
      /\ (0 <= pos -> 0 <= maximum <= len (b_src st) ->
          tmarkup t = rep marker (1 + count_marker (slice (b_src st) (pos + 1) maximum) marker)).
Proof. exact r_hr_spec. Qed.
Print Assumptions C03_hr_map.

(* the line scan of StateBlock.__init__ is a left fold over the characters *)
Theorem C03_line_scan_splits :
  forall n a s pos b, scan_loop n s pos (a ++ b) = scan_loop n (scan_loop n s pos a) (pos + len a) b.
Proof. exact scan_loop_app. Qed.
Print Assumptions C03_line_scan_splits.

(* the line tables of a fresh StateBlock, for every source: five lists of length lineMax + 1, and
   every row satisfies  0 <= bMarks <= bMarks + tShift <= eMarks <= len src , 0 <= sCount  -- the
   ranges from which every map and every content slice is computed *)
Theorem C03_line_tables_well_formed :
  forall src env toks,
    let s := state_init src env toks in
    len (b_bMarks s) = b_lineMax s + 1 /\ len (b_eMarks s) = b_lineMax s + 1 /\ len (b_tShift s) = b_lineMax s + 1
    /\ len (b_sCount s) = b_lineMax s + 1 /\ len (b_bsCount s) = b_lineMax s + 1 /\ 0 <= b_lineMax s
    /\ rows_ok (len src) (rev (b_bMarks s)) (rev (b_eMarks s)) (rev (b_tShift s)) (rev (b_sCount s)).
Proof. exact state_init_tables. Qed.
Print Assumptions C03_line_tables_well_formed.

(* leaf rules: progress, bound, maps inside [startLine, new line] *)
Theorem C03_code_maps : forall cfg st sl el st',
  r_code cfg st sl el false = Ok (true, st') -> sl < el -> leaf_maps st sl st' /\ b_line st' <= el.
Proof. intros cfg st sl el st' H. exact (leaf_c_maps _ _ _ _ (r_code_leaf cfg _ _ _ _ _ H)). Qed.
Print Assumptions C03_code_maps.
Theorem C03_fence_maps : forall cfg st sl el st',
  r_fence cfg st sl el false = Ok (true, st') -> sl < el -> leaf_maps st sl st' /\ b_line st' <= el.
Proof. intros cfg st sl el st' H. exact (leaf_c_maps _ _ _ _ (r_fence_leaf cfg _ _ _ _ _ _ H)). Qed.
Print Assumptions C03_fence_maps.
Theorem C03_hr_maps : forall cfg st sl el st',
  r_hr cfg st sl el false = Ok (true, st') -> sl < el -> leaf_maps st sl st' /\ b_line st' <= el.
Proof. intros cfg st sl el st' H. exact (leaf_c_maps _ _ _ _ (r_hr_leaf cfg _ _ _ _ _ _ H)). Qed.
Print Assumptions C03_hr_maps.
Theorem C03_heading_maps : forall cfg st sl el st',
  r_heading cfg st sl el false = Ok (true, st') -> sl < el -> leaf_maps st sl st' /\ b_line st' <= el.
Proof. intros cfg st sl el st' H. exact (leaf_c_maps _ _ _ _ (r_heading_leaf cfg _ _ _ _ _ _ H)). Qed.
Print Assumptions C03_heading_maps.
Theorem C03_html_block_maps : forall cfg st sl el st',
  r_html_block cfg st sl el false = Ok (true, st') -> sl < el -> leaf_maps st sl st' /\ b_line st' <= el.
Proof. intros cfg st sl el st' H. exact (leaf_c_maps _ _ _ _ (r_html_block_leaf cfg _ _ _ _ _ _ H)). Qed.
Print Assumptions C03_html_block_maps.
(* the two rules that consult terminator chains: for any callback that leaves the token list alone *)
Theorem C03_paragraph_maps : forall term, term_same term -> forall st sl el st',
  r_paragraph term st sl el false = Ok (true, st') -> sl < b_lineMax st -> leaf_maps st sl st' /\ b_line st' <= b_lineMax st.
Proof. exact r_paragraph_maps. Qed.
Print Assumptions C03_paragraph_maps.
Theorem C03_lheading_maps : forall cfg term, term_same term -> forall st sl el st',
  r_lheading cfg term st sl el false = Ok (true, st') -> sl < el -> leaf_maps st sl st' /\ b_line st' <= el.
Proof. exact r_lheading_maps. Qed.
Print Assumptions C03_lheading_maps.

(* ---- the whole block parser ------------------------------------------------------------- *)
From MD Require Import Model.Ruler Lemmas.MapWhole Lemmas.PipelineSafe.

(* Every token ParserBlock.parse appends carries a map [b, e) with 0 <= b < e <= lineMax (or none),
   the cursor ends inside the line table - for EVERY source, env and every configuration that
   has the paragraph rule and whose named terminator chains hold only rules with a silent mode.
   The proof carries, through every rule, container, terminator chain and table rewrite: each
   successful rule advances the cursor; nested tokenize makes progress, so container maps are
   non-empty; the reference rule's line counter never exceeds the line feeds of the lines it
   read (no line feed lies between a start mark and its end mark, for fresh tables and for
   the rewritten / restored tables of block quotes and list items alike). *)
Theorem C03_block_parse_maps :
  forall cfg rf cf, silent_terms cfg -> mem_str nm_paragraph (c_rules cfg) = true ->
  forall src env toks st',
    block_parse cfg rf cf src env toks = Ok st' ->
    let n := b_lineMax (state_init src env toks) in
    b_lineMax st' = n /\ 0 <= b_line st' <= n
    /\ exists seg, b_tokens st' = toks ++ seg /\ Forall (map_in 0 n) seg.
Proof. exact block_parse_maps. Qed.
Print Assumptions C03_block_parse_maps.

(* one rule call, any rule of the chain: on success the cursor moves strictly forward, stays in the
   table, the appended maps lie in [startLine, new line], the table invariant is kept; on failure
   or in silent mode the state comes back unchanged (parentType apart) *)
Theorem C03_rule_contract :
  forall cfg rf cf rec term, rec_c rec -> term_fr term ->
  forall n st sl el silent b st',
    apply_rule cfg rf cf rec term n st sl el silent = Ok (b, st') ->
    (silent = true -> silent_capable n) ->
    rule_c st sl el silent b st' /\ (str_eqb n nm_paragraph = true -> silent = false -> b = true).
Proof. exact apply_rule_c. Qed.
Print Assumptions C03_rule_contract.

(* the nested tokenize at any depth *)
Theorem C03_tokenize_contract :
  forall cfg rf cf, silent_terms cfg -> mem_str nm_paragraph (c_rules cfg) = true ->
  forall d, rec_c (tokenize cfg rf cf d).
Proof. exact tokenize_rec_c. Qed.
Print Assumptions C03_tokenize_contract.

Theorem C03_fresh_tables_invariant : forall src env toks, TI (state_init src env toks).
Proof. exact state_init_TI. Qed.
Print Assumptions C03_fresh_tables_invariant.

(* every Ruler-compiled configuration of a rule table in which code, lheading and paragraph have
   no alt chains (as in the generated table) satisfies the terminator hypothesis *)
Theorem C03_ruler_cfg_silent_terms :
  forall (rs : list (@rule str)) code mn html defs,
    alts_ok rs = true -> silent_terms (mkBCfg (compile_chain rs []) (compile_chain rs) code mn html defs).
Proof. exact ruler_cfg_silent_terms. Qed.
Print Assumptions C03_ruler_cfg_silent_terms.

(* the hypotheses are met by the generated rule table and by a concrete document with a heading,
   a block quote holding a list, a definition and a paragraph *)
From MD Require Import Gen.Rules.
Example C03_registry_alts_ok :
  alts_ok (map (fun na => mkRule (fst na) true (fst na) (snd na)) block_registry) = true.
Proof. vm_compute. reflexivity. Qed.

Example C03_maps_theorem_applies :
  let cfg := mkBCfg (compile_chain (map (fun na => mkRule (fst na) true (fst na) (snd na)) block_registry) [])
                    (compile_chain (map (fun na => mkRule (fst na) true (fst na) (snd na)) block_registry)) true 20 false false in
  mem_str nm_paragraph (c_rules cfg) = true
  /\ exists st', block_parse cfg (fun s => s) (fun s => s) ex_src env0 [] = Ok st' /\ 5 < len (b_tokens st').
Proof. cbv zeta. split; [vm_compute; reflexivity|]. eexists. split; vm_compute; reflexivity. Qed.

(* ---- sibling order ----------------------------------------------------------------------------- *)
From MD Require Import Lemmas.MapOrder.

(* [oseg lo hi tokens]: the tokens split into segments with line ranges [a, b), lo <= a < b, each
   range starting at or after the end of the one before it, every map of a segment inside its range,
   the last range ending at or before hi.  One segment is what one successful rule call appended:
   a block together with everything nested in it. *)

(* the whole document: no top-level block starts before the end of the block before it *)
Theorem C03_block_parse_ordered :
  forall cfg rf cf, silent_terms cfg -> mem_str nm_paragraph (c_rules cfg) = true ->
  forall src env toks st', block_parse cfg rf cf src env toks = Ok st' ->
  exists seg, b_tokens st' = toks ++ seg /\ oseg 0 (b_line st') seg.
Proof. exact block_parse_ordered. Qed.
Print Assumptions C03_block_parse_ordered.

(* the same inside every block quote and list item: what the nested block loop appends, at any
   depth and from any state satisfying the table invariant, is ordered *)
Theorem C03_nested_tokenize_ordered :
  forall cfg rf cf, silent_terms cfg -> mem_str nm_paragraph (c_rules cfg) = true ->
  forall d st a b st', tokenize cfg rf cf d st a b = Ok st' -> 0 <= a -> a < b -> b <= b_lineMax st -> TI st ->
  exists seg, b_tokens st' = b_tokens st ++ seg /\ oseg a (b_line st') seg.
Proof. exact tokenize_ordered. Qed.
Print Assumptions C03_nested_tokenize_ordered.

(* ordered segments are in range as a whole (so this refines C03_block_parse_maps) *)
Theorem C03_ordered_in_range : forall lo hi s, oseg lo hi s -> Forall (map_in lo hi) s.
Proof. exact oseg_in. Qed.
Print Assumptions C03_ordered_in_range.

(* ---- the map of an inline container spans the lines its content was taken from ------------------ *)
From MD Require Import Lemmas.Verbatim Lemmas.InlineContent.

(* the paragraph rule, from any state and with any terminator callback that only answers: the three
   tokens it appends carry the map [sl, nl) (the inline token too), nl is where the cursor ends, and
   the inline content is strip(getLines(sl, nl, blkIndent)) - which is, line by line, one piece per
   source line sl + i ([pieces]: a suffix of that line after at most 3 spaces from a split tab, only
   blanks and container-prefix characters dropped; C08_get_lines_verbatim) *)
Theorem C03_paragraph_content_lines :
  forall term, term_fr term -> forall st sl el st',
  r_paragraph term st sl el false = Ok (true, st') ->
  exists nl raw op inl cl,
    b_tokens st' = b_tokens st ++ [op; inl; cl]
    /\ tmap op = Some (sl, nl) /\ tmap inl = Some (sl, nl) /\ b_line st' = nl
    /\ get_lines st sl nl (b_blkIndent st) false = Ok raw
    /\ tcontent inl = strip_by is_space raw
    /\ (0 <= b_blkIndent st -> pieces st nl false sl raw).
Proof. exact paragraph_inline_lines. Qed.
Print Assumptions C03_paragraph_content_lines.

(* ---- no non-blank line is skipped: the line loop covers the input --------------------------------------- *)
From MD Require Import Lemmas.NoRaise Lemmas.MapOrder Lemmas.Cover.

(* For EVERY source, env and configuration with the paragraph rule (terminator chains as the Ruler compiles them,
   0 < maxNesting): what ParserBlock.parse appends is a sequence of segments, one per successful rule call, over line
   ranges [a, b) that increase and do not overlap, START ON A NON-BLANK LINE and contain every map of their tokens
   (cseg implies oseg), and every line BEFORE the first range, BETWEEN two ranges and AFTER the last one up to lineMax is blank for the line tables
   of the source ([blank]: StateBlock.isEmpty does not answer False).  The segment of a reference definition is
   empty: its lines are covered by the range of the call that recorded it in env. *)
Theorem C03_block_parse_covers :
  forall cfg rf cf src env toks st,
    term_names_ok cfg -> mem_str nm_paragraph (c_rules cfg) = true -> 0 < c_maxNesting cfg ->
    block_parse cfg rf cf src env toks = Ok st ->
    let s0 := state_init src env toks in
    exists seg, b_tokens st = toks ++ seg /\ cseg (blank s0) 0 (b_lineMax s0) seg.
Proof. exact block_parse_cover. Qed.
Print Assumptions C03_block_parse_covers.

(* what cseg gives, line by line: blank, or inside the line range of a rule call *)
Theorem C03_covered_line_by_line :
  forall (B : Z -> Prop) lo hi seg, cseg B lo hi seg ->
    forall l, lo <= l < hi -> B l \/ exists a b, a <= l < b /\ lo <= a /\ b <= hi.
Proof. exact cseg_covers. Qed.
Print Assumptions C03_covered_line_by_line.

(* ... and the ranges are ordered with all maps inside (the statement of C03_block_parse_ordered) *)
Theorem C03_covered_is_ordered : forall (B : Z -> Prop) lo hi seg, cseg B lo hi seg -> oseg lo hi seg.
Proof. exact cseg_oseg. Qed.
Print Assumptions C03_covered_is_ordered.

(* the definition, for reading: blank = isEmpty(line) is not False; cseg = nil | range then rest *)
Definition C03_cover_means :
  (forall st l, blank st l <-> is_empty st l <> Ok false)
  /\ (forall (B : Z -> Prop) lo hi, lo <= hi -> (forall l, lo <= l < hi -> B l) -> cseg B lo hi [])
  /\ (forall (B : Z -> Prop) lo hi a b seg rest, lo <= a -> a < b -> (forall l, lo <= l < a -> B l) -> ~ B a -> Forall (map_in a b) seg ->
        cseg B b hi rest -> cseg B lo hi (seg ++ rest))
  := conj (fun st l => conj (fun x => x) (fun x => x)) (conj cseg_nil cseg_cons).

(* ---- leaf blocks end on a non-blank line ------------------------------------------------------------------- *)
From MD Require Import Lemmas.LeafEnds.

(* the paragraph rule, from any state, with any terminator callback that only answers, called on a non-blank line (which the
   line loop guarantees: every rule-call range starts on a non-blank line, C03_block_parse_covers): its three tokens carry
   the map [sl, nl) and EVERY line of that range is non-blank - in particular the last one *)
Theorem C03_paragraph_ends_nonblank :
  forall term, term_fr term -> forall st sl el st',
  r_paragraph term st sl el false = Ok (true, st') -> is_empty st sl = Ok false ->
  exists nl op inl cl,
    b_tokens st' = b_tokens st ++ [op; inl; cl] /\ tmap op = Some (sl, nl) /\ tmap inl = Some (sl, nl) /\ b_line st' = nl
    /\ sl < nl /\ (forall l, sl <= l < nl -> is_empty st l = Ok false).
Proof. exact paragraph_ends_nonblank. Qed.
Print Assumptions C03_paragraph_ends_nonblank.

(* the indented-code rule: the map [sl, last) of its token ends on the last code line, which is non-blank (trailing blank
   lines are not part of the block) *)
Theorem C03_code_block_ends_nonblank :
  forall cfg st sl el silent st',
  r_code cfg st sl el silent = Ok (true, st') -> is_empty st sl = Ok false ->
  exists last t, b_tokens st' = b_tokens st ++ [t] /\ tmap t = Some (sl, last) /\ b_line st' = last
                 /\ sl < last /\ is_empty st (last - 1) = Ok false.
Proof. exact code_block_ends_nonblank. Qed.
Print Assumptions C03_code_block_ends_nonblank.

(* the setext heading rule: its opening token carries the map [sl, nl + 1) where nl is the underline - EVERY line of that range
   is non-blank, in particular the last one (the underline); the inline token's map [sl, nl) stops before the underline *)
From MD Require Import Lemmas.TableRows.
Theorem C03_setext_heading_ends_nonblank :
  forall cfg term, term_fr term -> forall st sl el st',
  r_lheading cfg term st sl el false = Ok (true, st') -> is_empty st sl = Ok false ->
  exists nl op inl cl,
    b_tokens st' = b_tokens st ++ [op; inl; cl] /\ tmap op = Some (sl, nl + 1) /\ tmap inl = Some (sl, nl) /\ b_line st' = nl + 1
    /\ sl < nl /\ nl < el /\ (forall l, sl <= l < nl + 1 -> is_empty st l = Ok false).
Proof. exact setext_heading_ends_nonblank. Qed.
Print Assumptions C03_setext_heading_ends_nonblank.

(* table body rows: every tr_open token the table rule's row loop pushes carries a one-line map [l, l + 1) on a non-blank line l
   (the loop stops at the first line that is empty once trimmed); from any state whose line tables are well formed (TI: what
   StateBlock builds and every rule keeps) and any terminator callback that only answers *)
Theorem C03_table_rows_end_nonblank :
  forall cfg term, term_fr term -> forall fuel st aligns sl el r tb' st',
  TI st -> 0 <= sl ->
  table_rows cfg fuel term st aligns sl (sl + 2) el None = Ok (r, tb', st') ->
  exists seg, b_tokens st' = b_tokens st ++ seg
    /\ Forall (fun t => ttype t = s_tr_open -> exists l, tmap t = Some (l, l + 1) /\ is_empty st l = Ok false) seg.
Proof. exact table_body_rows_nonblank. Qed.
Print Assumptions C03_table_rows_end_nonblank.

(* ---- containment in the enclosing container's own map ------------------------------------------------------ *)
(* the block quote rule, with any nested block loop that meets the loop's contract (rec_c: proved for ParserBlock.tokenize
   at every depth, C03_nested_tokenize_maps) and any terminator callback that only answers: the blockquote_open token carries
   exactly the line range the rule consumed as its map, and every token between it and blockquote_close has its map inside
   that range *)
Theorem C03_quote_contains :
  forall cfg rec term, rec_c rec -> term_fr term -> forall st sl el st',
  r_blockquote cfg rec term st sl el false = Ok (true, st') -> pre st sl el ->
  exists op seg cl, b_tokens st' = b_tokens st ++ op :: seg ++ [cl]
    /\ tmap op = Some (sl, b_line st') /\ ttype op = [98; 108; 111; 99; 107; 113; 117; 111; 116; 101; 95; 111; 112; 101; 110]
    /\ Forall (map_in sl (b_line st')) seg /\ tmap cl = None.
Proof. exact r_blockquote_contains. Qed.
Print Assumptions C03_quote_contains.

(* the list rule: the list token carries the line range of the whole list; between it and the closing token the maps are those
   of a sequence of items (mseq), each  list_item_open [a, b)  followed by tokens with maps inside [a, b) and a closing token,
   item after item, the last one ending where the list ends - also after markTightParagraphs *)
Theorem C03_list_contains :
  forall cfg rec term, rec_c rec -> term_fr term -> forall st sl el st',
  r_list cfg rec term st sl el false = Ok (true, st') -> pre st sl el ->
  exists lo its lc, b_tokens st' = b_tokens st ++ lo :: its ++ [lc]
    /\ tmap lo = Some (sl, b_line st') /\ tmap lc = None /\ mseq sl (b_line st') (map tmap its).
Proof. exact r_list_contains. Qed.
Print Assumptions C03_list_contains.

Definition C03_mseq_means :
  (forall a b ms, Forall (mp_in a b) ms -> mseq a b (Some (a, b) :: ms ++ [None]))
  /\ (forall a b c ms rest, Forall (mp_in a b) ms -> mseq b c rest -> mseq a c ((Some (a, b) :: ms ++ [None]) ++ rest))
  /\ (forall a b x y, mp_in a b (Some (x, y)) <-> a <= x /\ x < y /\ y <= b)
  := conj mseq_one (conj mseq_more (fun a b x y => conj (fun h => h) (fun h => h))).
