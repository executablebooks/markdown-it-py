(* C16 -- reference definitions act through env.  Proved for a WHOLE parse, every source, env,
   configuration and core chain (C16_parse_env_extends, C16_block_parse_env_extends): the
   definitions already in env stay exactly where they are (a prefix of the new list: the first
   definition of a label wins, across parses too), every new entry is appended under a label that
   was absent, later definitions of a present label are appended to duplicate_refs, nothing is
   removed, and every recorded destination is a validated normalizeLink result.  And: what the reference rule does to env on
   EVERY invocation -- failure and silent mode leave it unchanged; a successful call records
   exactly one definition with the map of its own lines, as a new entry iff the label is absent,
   else as a duplicate; nothing is ever overwritten or removed (first definition wins).
   Only statements and [exact]. *)
From MD Require Import Base.Py Model.Utils Model.StateBlock Model.Block Model.Pipeline Lemmas.BlockLemmas
     Lemmas.EnvLemmas Lemmas.PipelineUrls Lemmas.CollapseWs.

Theorem C16_reference_env :
  forall cfg rf cf tm st startLine endLine silent b st',
    term_keeps_env tm ->
    r_reference cfg rf cf tm st startLine endLine silent = Ok (b, st') ->
    (b = false \/ silent = true -> b_env st' = b_env st)
    /\ (b = true -> silent = false ->
        exists label rec,
          r_map rec = (startLine, b_line st') /\
          ((alookup label (env_refs (b_env st)) = None
            /\ e_refs (b_env st') = Some (env_refs (b_env st) ++ [(label, rec)])
            /\ e_dups (b_env st') = e_dups (b_env st))
           \/ (alookup label (env_refs (b_env st)) <> None
               /\ e_refs (b_env st') = Some (env_refs (b_env st))
               /\ e_dups (b_env st') = Some (env_dups (b_env st) ++ [(label, rec)])))).
Proof. exact reference_env. Qed.
Print Assumptions C16_reference_env.

(* what env_ext says (for reading the theorems below) *)
Definition C16_env_ext_means :
  forall rf e e', env_ext rf e e' <->
    exists added dups,
      env_refs e' = env_refs e ++ added /\ env_dups e' = env_dups e ++ dups
      /\ Forall (good_ref rf) added /\ Forall (good_ref rf) dups
      /\ Forall (fun lr => alookup (fst lr) (env_refs e) = None) added
  := fun rf e e' => conj (fun H => H) (fun H => H).

(* the block parser, any nesting, any rule subset *)
Theorem C16_block_parse_env_extends :
  forall cfg reformat casefold src env toks st,
    block_parse cfg reformat casefold src env toks = Ok st -> env_ext reformat env (b_env st).
Proof. exact block_parse_env. Qed.
Print Assumptions C16_block_parse_env_extends.

(* MarkdownIt.parse with any core chain *)
Theorem C16_parse_env_extends :
  forall cfg reformat casefold linktext src env ts env',
    parse cfg reformat casefold linktext src env = Ok (ts, env') -> env_ext reformat env env'.
Proof. exact parse_env_extends. Qed.
Print Assumptions C16_parse_env_extends.

(* ---- labels match with internal white space collapsed ----
   normalizeReference is  casefold(re.sub(r"\s+", " ", label.strip())).  The regular expression,
   executed by the model's backtracking matcher on EVERY string, computes the direct function
   [collapse]: each maximal run of white space becomes one space, everything else is copied. *)
Theorem C16_collapse_is_runs_to_one_space : forall s, collapse_ws s = collapse s.
Proof. exact collapse_ws_is_collapse. Qed.
Print Assumptions C16_collapse_is_runs_to_one_space.

(* so two spellings of a label that differ only in how one internal run of white space is
   written (any non-empty runs, of any characters of \s, any length) have the same key ... *)
Theorem C16_label_internal_whitespace :
  forall casefold c a w1 w2 b d,
    is_py_space c = false -> is_py_space d = false ->
    w1 <> [] -> w2 <> [] -> forallb wsb w1 = true -> forallb wsb w2 = true ->
    normalize_reference casefold (c :: a ++ w1 ++ b ++ [d]) = normalize_reference casefold (c :: a ++ w2 ++ b ++ [d]).
Proof. exact normalize_reference_respelling. Qed.
Print Assumptions C16_label_internal_whitespace.

(* ... and white space around the label does not matter at all *)
Theorem C16_label_outer_whitespace :
  forall casefold l s r,
    forallb is_py_space l = true -> forallb is_py_space r = true ->
    (match s with [] => true | c :: _ => negb (is_py_space c) end) = true ->
    (match rev s with [] => true | c :: _ => negb (is_py_space c) end) = true ->
    normalize_reference casefold (l ++ s ++ r) = normalize_reference casefold s.
Proof. intros casefold l s r Hl Hr _ _. exact (normalize_reference_outer casefold l s r Hl Hr). Qed.
Print Assumptions C16_label_outer_whitespace.

Example C16_label_whitespace_example :
  collapse_ws [102; 111; 111; 32; 9; 10; 98; 97; 114] = [102; 111; 111; 32; 98; 97; 114]
  /\ forallb wsb [32; 9; 10] = true /\ is_py_space 102 = false.
Proof. vm_compute. repeat split. Qed.
