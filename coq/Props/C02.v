(* C02 -- token streams are well nested, correctly levelled and tree-constructible.
   Block half, PROVED for every source, env, configuration and every value of the opaque
   dependencies: what ParserBlock.parse appends to the token list is a balanced segment at depth 0
   (C02_block_stream_balanced): openers and closers pair up in nested fashion, every level is the
   running depth, nesting sums to zero, the state's level is back at 0.  The proof goes rule by
   rule (all 11 block rules incl. the recursive containers, the table body, the updates of maps
   and hidden flags after the fact), through terminator chains, the line loop and the recursion
   on container depth.  Inline half: fragments_join / text_join theorems below; that each inline
   rule pushes balanced segments is carried by the pipeline correspondence and the
   well-formedness predicate on the implementation.  Only statements and [exact]. *)
From MD Require Import Base.Py Model.Token Model.Core Model.StateBlock Model.Block Model.Inline Model.Tree
     Lemmas.StreamWF Lemmas.BlockLemmas Lemmas.TreeLemmas Lemmas.BlockWF.

(* after fragments_join (the last inline post-processing rule) every token's level equals its
   depth at that point and no two text tokens are adjacent *)
Theorem C02_fragments_join_wf :
  forall ts, text_flat ts -> levels_ok (fj ts 0 None) 0 /\ no_adjacent_text (fj ts 0 None).
Proof. exact fragments_join_wf. Qed.
Print Assumptions C02_fragments_join_wf.

(* text_join leaves no text_special placeholder among the children of an inline token *)
Theorem C02_text_join_no_special :
  forall l, Forall (fun x => str_eqb (ttype x) s_text_special = false) (join_children l).
Proof. exact text_join_no_special. Qed.
Print Assumptions C02_text_join_no_special.

(* StateBlock.push: the level of the pushed token is the depth, and the state's level follows *)
Theorem C02_block_push_level :
  forall st ty tag nesting f, (forall t, tlevel (f t) = tlevel t) ->
    b_level (bpush st ty tag nesting f) = b_level st + (if 0 <? nesting then 1 else if nesting <? 0 then -1 else 0)
    /\ exists t, b_tokens (bpush st ty tag nesting f) = b_tokens st ++ [t]
                 /\ tlevel t = (if nesting <? 0 then b_level st - 1 else b_level st).
Proof. exact bpush_level. Qed.
Print Assumptions C02_block_push_level.

(* a tree that builds flattens back to the identical stream *)
Theorem C02_tree_roundtrip : forall ts n, build ts = Ok n -> to_tokens n = ts.
Proof. exact tree_roundtrip. Qed.
Print Assumptions C02_tree_roundtrip.

(* the block parser, whole: balanced, well levelled, for all inputs and configurations *)
Theorem C02_block_stream_balanced :
  forall cfg reformat casefold src env toks st,
    block_parse cfg reformat casefold src env toks = Ok st ->
    exists seg, b_tokens st = toks ++ seg /\ bal 0 seg /\ levels_ok seg 0 /\ nest_sum seg = 0 /\ b_level st = 0.
Proof. exact block_parse_balanced. Qed.
Print Assumptions C02_block_stream_balanced.

(* the same contract for any nested run of the block loop (container contents) *)
Theorem C02_nested_tokenize_balanced :
  forall cfg reformat casefold depth st startLine endLine st',
    tokenize cfg reformat casefold depth st startLine endLine = Ok st' -> ext st st'.
Proof. exact tokenize_ok. Qed.
Print Assumptions C02_nested_tokenize_balanced.

(* what [bal] means: levels are the running depth and nesting sums to zero *)
Theorem C02_balanced_levels : forall d ts, bal d ts -> levels_ok ts d /\ nest_sum ts = 0.
Proof. exact bal_summary. Qed.
Print Assumptions C02_balanced_levels.

(* ---- inline half, tokenizer phase ---------------------------------------------------------- *)
From MD Require Lemmas.InlineNest.

(* ParserInline.tokenize at any nesting depth, from ANY state: the level comes back to where it
   was and the appended segment is nested - link_open / link_close pairs like brackets (matching
   kind), every other token with nesting 0.  Covers all 12 tokenizer rules, label / image
   recursion, skipToken, pending-text flushing. *)
Theorem C02_inline_tokenize_nested :
  forall cfg rf cf lt depth st st',
    inline_tokenize cfg rf cf lt (ifs cfg rf cf lt depth) st = Ok st' ->
    i_level st' = i_level st /\ exists seg, i_tokens st' = i_tokens st ++ seg /\ InlineNest.ib seg.
Proof. exact InlineNest.inline_tokenize_nested. Qed.
Print Assumptions C02_inline_tokenize_nested.

(* the whole inline parser when the emphasis / strikethrough post-rules are not in the chain (they
   are the rules that turn text tokens into pairs): the output checks with a depth counter -
   never negative, zero at the end, every closing token a link_close under an open link_open;
   fragments_join only drops text tokens and rewrites levels *)
Theorem C02_inline_parse_nested :
  forall cfg rf cf lt src env r,
    InlineNest.no_pair_rules2 cfg -> inline_parse cfg rf cf lt src env [] = Ok r -> InlineNest.nested 0 r.
Proof. exact InlineNest.inline_parse_nested. Qed.
Print Assumptions C02_inline_parse_nested.

Theorem C02_fragments_join_keeps_nesting :
  forall tokens d level carry, InlineNest.nested d tokens -> InlineNest.nested d (fj tokens level carry).
Proof. exact InlineNest.fj_nested. Qed.
Print Assumptions C02_fragments_join_keeps_nesting.

(* ---- a syntax tree can be built ------------------------------------------------------------------ *)
From MD Require Import Model.Tree Lemmas.BlockKinds Lemmas.TreeBuild.

(* on every balanced stream of tokens without children the tree builder (SyntaxTreeNode: find the
   closing token by counting nesting) returns a tree, and the tree flattens back to the stream *)
Theorem C02_balanced_stream_builds :
  forall d ts, bal d ts -> Forall childless ts -> exists n, build ts = Ok n /\ to_tokens n = ts.
Proof. exact build_bal. Qed.
Print Assumptions C02_balanced_stream_builds.

(* what ParserBlock.parse returns is such a stream - for every source, env and configuration *)
Theorem C02_block_stream_tree_constructible :
  forall cfg rf cf, chains_sub cfg -> forall src env st,
  block_parse cfg rf cf src env [] = Ok st -> exists n, build (b_tokens st) = Ok n /\ to_tokens n = b_tokens st.
Proof. exact block_parse_tree. Qed.
Print Assumptions C02_block_stream_tree_constructible.
