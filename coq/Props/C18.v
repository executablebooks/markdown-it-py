(* C18 -- inline text means the same in every block context; render options are inert outside
   their documented place.  Context half, proved for the paragraph context: for EVERY line s that
   starts with a letter, ends in a non-blank and has no line-end character, and every
   configuration whose block chain contains the paragraph rule, parse(s LF) is paragraph_open,
   inline, paragraph_close where the inline token has content s and children
   join(inline_parse s) -- literally the children parseInline(s) gives its single inline token
   (C18_paragraph_is_parse_inline: two equations with the same right-hand sub-term).  Renderer
   half: statements for ALL token lists.  Only statements and [exact]. *)
From MD Require Import Base.Py Base.Str Model.Token Model.Render Model.Core Model.Block Model.Inline Model.Pipeline
     Lemmas.RenderLemmas Lemmas.ParaLine.
From MD Require Lemmas.NestLine.

(* xhtmlOut: the tokens left behind are the same, and the outputs coincide once the two
   void-tag spellings (" /" and <br /> vs <br>) are erased *)
Theorem C18_xhtmlOut_local :
  forall o l p c1 l1 c2 l2,
    render_list (with_xhtml o true) p l = Ok (c1, l1) ->
    render_list (with_xhtml o false) p l = Ok (c2, l2) ->
    l1 = l2 /\ flat_map erase_void c1 = flat_map erase_void c2.
Proof. exact render_list_xhtml. Qed.
Print Assumptions C18_xhtmlOut_local.

(* breaks: on any token it selects the hard-break spelling for softbreak tokens, nothing else *)
Theorem C18_breaks_local :
  forall o p t n,
    render_one (with_breaks o true) p t n =
    if str_eqb (ttype t) s_softbreak && negb (str_eqb (ttype t) s_code_inline || str_eqb (ttype t) s_code_block
         || str_eqb (ttype t) s_fence || str_eqb (ttype t) s_image || str_eqb (ttype t) s_hardbreak)
    then Ok ([CLit (br o)], t)
    else render_one (with_breaks o false) p t n.
Proof. exact render_one_breaks. Qed.
Print Assumptions C18_breaks_local.

(* breaks, langPrefix, highlight are read for softbreak / fence tokens only *)
Theorem C18_option_frame :
  forall o o' p t n, o_xhtml o = o_xhtml o' ->
    str_eqb (ttype t) s_softbreak = false -> str_eqb (ttype t) s_fence = false ->
    render_one o p t n = render_one o' p t n.
Proof. exact render_one_option_frame. Qed.
Print Assumptions C18_option_frame.

(* langPrefix: within a fence, only escaped data (the class value) may differ *)
Theorem C18_langPrefix_local :
  forall lp1 lp2 t info hl c1 c2,
    render_fence_core lp1 t info hl = Ok c1 -> render_fence_core lp2 t info hl = Ok c2 ->
    Forall2 same_but_data c1 c2.
Proof. exact render_fence_langPrefix. Qed.
Print Assumptions C18_langPrefix_local.

(* the paragraph context hands the inline parser the same string as inline mode, and keeps its result *)
Theorem C18_paragraph_is_parse_inline :
  forall cfg reformat casefold linktext s, line_ok s -> mem_z 13 s = false -> mem_z 0 s = false ->
  forall pre post, c_rules (p_block cfg) = pre ++ nm_paragraph :: post ->
    Forall (fun n => str_eqb n nm_paragraph = false) pre -> 0 < c_maxNesting (p_block cfg) ->
    p_core cfg = [n_normalize; n_block; n_inline; n_text_join] ->
  forall env,
    parse cfg reformat casefold linktext (s ++ [10]) env
    = (do toks <- inline_parse (p_inline cfg) reformat casefold linktext s env [];
       Ok ([p_open; set_children (p_inl s) (Some (join_children toks)); p_close], env))
    /\ parse_inline cfg reformat casefold linktext s env
       = (do toks <- inline_parse (p_inline cfg) reformat casefold linktext s env [];
          Ok ([set_children (i_inl s) (Some (join_children toks))], env)).
Proof. exact NestLine.paragraph_is_parse_inline. Qed.
Print Assumptions C18_paragraph_is_parse_inline.

(* ---- the heading context -------------------------------------------------------------------------- *)
From MD Require Import Lemmas.HeadLine.

(* For EVERY text t that starts with a letter, has no line end inside, no blank at either end and
   does not end in '#' (the property's guard for ATX), every configuration whose block chain reaches
   the heading rule before lheading / paragraph, every env: parse("# " t LF) is heading_open, inline,
   heading_close, the inline token holds t and its children are exactly the children that
   parseInline(t) gives its inline token - the block parser hands the inline parser the same string
   in a heading as in inline mode (and as in a paragraph: C18_paragraph_is_parse_inline). *)
Theorem C18_heading_is_parse_inline :
  forall cfg rf cf lt t, head_ok t -> mem_z 13 t = false -> mem_z 0 t = false ->
  forall pre post, c_rules (p_block cfg) = pre ++ nm_heading :: post ->
    Forall (fun n => str_eqb n nm_heading = false /\ str_eqb n nm_paragraph = false /\ str_eqb n nm_lheading = false) pre ->
    0 < c_maxNesting (p_block cfg) -> p_core cfg = [n_normalize; n_block; n_inline; n_text_join] ->
  forall env,
    parse cfg rf cf lt ((35 :: 32 :: t) ++ [10]) env
    = (do toks <- inline_parse (p_inline cfg) rf cf lt t env [];
       Ok ([h_open; set_children (h_inl t) (Some (join_children toks)); h_close], env))
    /\ parse_inline cfg rf cf lt t env
       = (do toks <- inline_parse (p_inline cfg) rf cf lt t env [];
          Ok ([set_children (i_inl t) (Some (join_children toks))], env)).
Proof. exact heading_is_parse_inline. Qed.
Print Assumptions C18_heading_is_parse_inline.

Example C18_heading_guard_satisfiable : head_ok [72; 105; 32; 42; 121; 111; 117; 42].
Proof. exact head_ok_example. Qed.

From MD Require Import Lemmas.QuoteLine.
(* the block quote context: the inline token inside  "> " s  has content s and exactly the children of
   parseInline(s) (the same inline_parse call as in C18_paragraph_is_parse_inline) *)
Theorem C18_quote_is_parse_inline :
  forall cfg rf cf lt s, line_ok s -> mem_z 13 s = false -> mem_z 0 s = false ->
  forall rpre rpost, c_rules (p_block cfg) = rpre ++ nm_paragraph :: rpost ->
    Forall (fun n => str_eqb n nm_paragraph = false) rpre ->
  forall bpre bpost, c_rules (p_block cfg) = bpre ++ nm_blockquote :: bpost ->
    Forall (fun n => n = nm_table \/ n = nm_code \/ n = nm_fence) bpre ->
    1 < c_maxNesting (p_block cfg) ->
    p_core cfg = [n_normalize; n_block; n_inline; n_text_join] ->
  forall env,
    parse cfg rf cf lt ([62; 32] ++ s ++ [10]) env
    = (do toks <- inline_parse (p_inline cfg) rf cf lt s env [];
       Ok (bq_open_tok :: map deeper [p_open; set_children (p_inl s) (Some (join_children toks)); p_close] ++ [bq_close_tok], env))
    /\ parse_inline cfg rf cf lt s env
       = (do toks <- inline_parse (p_inline cfg) rf cf lt s env [];
          Ok ([set_children (i_inl s) (Some (join_children toks))], env)).
Proof.
  exact (fun cfg rf cf lt s Hs H13 H0 rpre rpost HR Hpre bpre bpost HB Hbpre Hn Hc env =>
    conj (proj2 (NestLine.quote_nests_paragraph cfg rf cf lt s Hs H13 H0 rpre rpost HR Hpre bpre bpost HB Hbpre Hn Hc env))
         (parse_inline_one_line cfg rf cf lt s H13 H0 Hc env)).
Qed.
Print Assumptions C18_quote_is_parse_inline.

(* the list item context: the inline token inside  "- " s  has content s and exactly the children of parseInline(s) *)
Theorem C18_item_is_parse_inline :
  forall cfg rf cf lt s, line_ok s -> mem_z 13 s = false -> mem_z 0 s = false ->
  forall rpre rpost, c_rules (p_block cfg) = rpre ++ nm_paragraph :: rpost ->
    Forall (fun n => str_eqb n nm_paragraph = false) rpre ->
  forall bpre bpost, c_rules (p_block cfg) = bpre ++ nm_list :: bpost ->
    Forall (fun n => n = nm_table \/ n = nm_code \/ n = nm_fence \/ n = nm_blockquote \/ n = nm_hr) bpre ->
    2 < c_maxNesting (p_block cfg) ->
    p_core cfg = [n_normalize; n_block; n_inline; n_text_join] ->
  forall env,
    parse cfg rf cf lt ([45; 32] ++ s ++ [10]) env
    = (do toks <- inline_parse (p_inline cfg) rf cf lt s env [];
       Ok (ul_open_tok :: li_open_tok
           :: hide_para (map deeper2 [p_open; set_children (p_inl s) (Some (join_children toks)); p_close])
           ++ [li_close_tok; ul_close_tok], env))
    /\ parse_inline cfg rf cf lt s env
       = (do toks <- inline_parse (p_inline cfg) rf cf lt s env [];
          Ok ([set_children (i_inl s) (Some (join_children toks))], env)).
Proof.
  exact (fun cfg rf cf lt s Hs H13 H0 rpre rpost HR Hpre bpre bpost HB Hbpre Hn Hc env =>
    conj (proj2 (NestLine.item_nests_paragraph cfg rf cf lt s Hs H13 H0 rpre rpost HR Hpre bpre bpost HB Hbpre Hn Hc env))
         (parse_inline_one_line cfg rf cf lt s H13 H0 Hc env)).
Qed.
Print Assumptions C18_item_is_parse_inline.

From MD Require Import Lemmas.NestLine.
(* every nesting of block quotes and list items: the inline token has content s and the children of parseInline(s) *)
Theorem C18_any_containers_is_parse_inline :
  forall cfg rf cf lt s, line_ok s -> mem_z 13 s = false -> mem_z 0 s = false ->
  forall RA RB RC RD, c_rules (p_block cfg) = RA ++ nm_blockquote :: RB ++ nm_list :: RC ++ nm_paragraph :: RD ->
    Forall (fun n => n = nm_table \/ n = nm_code \/ n = nm_fence) RA ->
    Forall (fun n => n = nm_table \/ n = nm_code \/ n = nm_fence \/ n = nm_hr) RB ->
    Forall (fun n => str_eqb n nm_paragraph = false) RC ->
    p_core cfg = [n_normalize; n_block; n_inline; n_text_join] ->
  forall cs, Forall okc cs -> weight cs < c_maxNesting (p_block cfg) ->
  forall env,
    parse cfg rf cf lt (prefix cs ++ s ++ [10]) env
    = (do toks <- inline_parse (p_inline cfg) rf cf lt s env [];
       Ok (wrapc s cs 0 false (join_children toks), env))
    /\ parse_inline cfg rf cf lt s env
       = (do toks <- inline_parse (p_inline cfg) rf cf lt s env [];
          Ok ([set_children (i_inl s) (Some (join_children toks))], env)).
Proof.
  exact (fun cfg rf cf lt s Hs H13 H0 RA RB RC RD HC HA HB HCn Hc cs FO Hw env =>
    conj (parse_nested cfg rf cf lt s Hs H13 H0 RA RB RC RD HC HA HB HCn Hc cs FO Hw env)
         (parse_inline_one_line cfg rf cf lt s H13 H0 Hc env)).
Qed.
Print Assumptions C18_any_containers_is_parse_inline.

(* the renderer on those token lists: the HTML is the rendering of the inline children between the tags of the containers -
   the same children rendered once, whatever the nesting *)
From MD Require Import Lemmas.NestRender.
Theorem C18_render_any_containers :
  forall o s cs ch cch ch',
    render_inline_list o None ch = Ok (cch, ch') ->
    render o (wrapc s cs 0 false ch) = Ok (nest_html cs false (html_of cch), wrapc s cs 0 false ch').
Proof. exact render_nested. Qed.
Print Assumptions C18_render_any_containers.
