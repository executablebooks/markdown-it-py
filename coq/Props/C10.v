(* C10 -- rule and option switches have exactly their documented effect.  Proved: for EVERY source
   and configuration, every token the block parser appends has the (type, tag) of the vocabulary
   of a rule that is in the chain (C10_block_kinds_need_producer): no table tokens without the
   table rule, no heading tokens without heading / lheading, no html_block without the rule and
   options.html ...; the side condition (terminator chains are sub-lists of the main chain) holds
   for every configuration compiled from a Ruler state (C10_ruler_chains).  And: the
   two extensions are conservative at rule level (a table rule on a source without '|' and a
   strikethrough rule away from '~' return false and leave the state untouched; strikethrough
   post-processing without '~' delimiters leaves the tokens untouched).  Only statements and
   [exact]. *)
From MD Require Import Base.Py Base.Str Model.Token Model.StateBlock Model.Block Model.Inline Model.Ruler
     Lemmas.BlockLemmas Lemmas.InlineLemmas Lemmas.BlockKinds.

Theorem C10_table_inert :
  forall cfg term st startLine endLine silent r,
    mem_z 124 (b_src st) = false ->
    r_table cfg term st startLine endLine silent = Ok r -> r = (false, st).
Proof. exact table_inert. Qed.
Print Assumptions C10_table_inert.

Theorem C10_strikethrough_inert :
  forall st silent r,
    (forall c, py_idx (i_src st) (i_pos st) = Ok c -> c <> 126) ->
    r_strikethrough st silent = Ok r -> r = (false, st).
Proof. exact strike_tokenize_inert. Qed.
Print Assumptions C10_strikethrough_inert.

Theorem C10_strikethrough_post_inert :
  forall ds tokens r, Forall (fun d => d_marker d <> 126) ds -> strike_post ds tokens = Ok r -> r = tokens.
Proof. exact strike_post_inert. Qed.
Print Assumptions C10_strikethrough_post_inert.

(* every block token kind has a producer in the chain *)
Theorem C10_block_kinds_need_producer :
  forall cfg reformat casefold, chains_sub cfg ->
  forall src env toks st,
    block_parse cfg reformat casefold src env toks = Ok st ->
    exists seg, b_tokens st = toks ++ seg /\ Forall (fun t => exists n, In n (c_rules cfg) /\ P_rule cfg n t) seg.
Proof. exact block_parse_kinds. Qed.
Print Assumptions C10_block_kinds_need_producer.

(* the side condition holds for every configuration compiled from a Ruler state *)
Theorem C10_ruler_chains :
  forall (rs : list (@rule str)) code mn html defs,
    chains_sub (mkBCfg (compile_chain rs []) (compile_chain rs) code mn html defs).
Proof. exact ruler_cfg_chains_sub. Qed.
Print Assumptions C10_ruler_chains.

(* every inline token kind has a producer: for EVERY source, env and inline configuration, each
   token ParserInline.parse leaves in the list is text, or of a kind one of whose producing rules
   is in the chain - text_special: escape or entity; softbreak: newline; hardbreak: newline or
   escape; code_inline: backticks; link_open / link_close: link or autolink; image: image;
   html_inline: the html option; s_open / s_close: the strikethrough post-rule; em / strong: the
   emphasis post-rule *)
From MD Require Import Model.Render.
From MD Require Lemmas.InlineProducers.
Theorem C10_inline_kinds_need_producer :
  forall cfg rf cf lt src env tokens r,
    Forall (InlineProducers.Vp cfg) tokens -> inline_parse cfg rf cf lt src env tokens = Ok r ->
    Forall (InlineProducers.Vp cfg) r.
Proof. exact InlineProducers.inline_kinds_need_producer. Qed.
Print Assumptions C10_inline_kinds_need_producer.

(* read off for one kind: without the backticks rule there is no code_inline token *)
Theorem C10_no_backticks_no_code_inline :
  forall cfg rf cf lt src env r,
    ~ In n_backticks (ic_rules cfg) -> inline_parse cfg rf cf lt src env [] = Ok r ->
    Forall (fun t => ttype t <> s_code_inline) r.
Proof. exact InlineProducers.no_backticks_no_code_inline. Qed.
Print Assumptions C10_no_backticks_no_code_inline.

(* the inline_definitions option only adds definition tokens: the reference rule under two configurations that differ in nothing
   but this option, from the same state with the same terminator callback, gives the same answer; the same state when it fails
   or runs silently; and otherwise the state with the option on is the state with the option off plus exactly ONE token at the
   end of the token list - a "definition" token, nesting 0, whose map is the definition's own lines - env, line, parent type
   and everything else identical *)
From RecordUpdate Require Import RecordUpdate.
From MD Require Import Model.StateBlock Lemmas.RefDefs.
Theorem C10_inline_definitions_only_adds_a_token :
  forall cfg rf cf term st sl el silent b1 s1 b2 s2,
  r_reference (with_defs cfg false) rf cf term st sl el silent = Ok (b1, s1) ->
  r_reference (with_defs cfg true) rf cf term st sl el silent = Ok (b2, s2) ->
  b2 = b1 /\ (b1 = false \/ silent = true -> s2 = s1)
  /\ (b1 = true -> silent = false ->
      exists d, ttype d = s_definition /\ tnesting d = 0 /\ tmap d = Some (sl, b_line s1)
                /\ s2 = s1 <| b_tokens := b_tokens s1 ++ [d] |>).
Proof. exact reference_inline_defs. Qed.
Print Assumptions C10_inline_definitions_only_adds_a_token.

(* with_defs changes that one field *)
Theorem C10_with_defs_means :
  forall cfg b, c_inline_defs (with_defs cfg b) = b /\ c_rules (with_defs cfg b) = c_rules cfg /\ c_term (with_defs cfg b) = c_term cfg
             /\ c_code (with_defs cfg b) = c_code cfg /\ c_maxNesting (with_defs cfg b) = c_maxNesting cfg /\ c_html (with_defs cfg b) = c_html cfg.
Proof. exact with_defs_fields. Qed.
Print Assumptions C10_with_defs_means.
