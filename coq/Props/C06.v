(* C06 -- container laws: quoting a document nests its blocks.  Proved so far (row level): for a
   tab-free quoted line  '>' ' ' blank^k rest  the row that the block quote rule writes into the
   line tables (bMarks, tShift, sCount, bsCount) is the row the line scanner computes for the
   un-prefixed line  blank^k rest , moved two characters to the right; so the nested block loop
   sees, line by line, the tables of the un-quoted document.  The document-level law (the nested
   loop then produces the same tokens) is decided on the implementation and through the
   correspondence.  Only statements and [exact]. *)
From MD Require Import Base.Py Base.Str Model.Token Model.Utils Model.StateBlock Model.Block Lemmas.QuoteLemmas.
From MD Require Lemmas.NestLine.

(* the row written by the quote rule for  '>' ' ' blank^k (non-blank | end of line) *)
Theorem C06_quote_prefix_row :
  forall src pos0 maximum sc bs k,
    0 <= pos0 -> nth_error src (Z.to_nat (pos0 + 1)) = Some 32 ->
    spaces_at src (pos0 + 2) k -> stop_at src (pos0 + 2 + Z.of_nat k) maximum ->
    pos0 + 2 + Z.of_nat k <= maximum -> maximum <= len src ->
    bq_strip src pos0 maximum sc bs =
      Ok (mkBq (pos0 + 2) (Z.of_nat k) (Z.of_nat k) (bs + sc + 2) (maximum <=? pos0 + 2 + Z.of_nat k)).
Proof. exact bq_strip_prefix. Qed.
Print Assumptions C06_quote_prefix_row.

(* the row the scanner computes for the un-prefixed text line  blank^k c body LF  *)
Theorem C06_scanned_text_row :
  forall k c body n bM eM tS sC start pos,
    is_space c = false -> c <> 10 -> (forall x, In x body -> x <> 10) ->
    pos + Z.of_nat k + 1 + len body <= n - 1 ->
    scan_loop n (mkScan bM eM tS sC false start 0 0) pos (repeat_z 32 k ++ c :: body ++ [10])
    = mkScan (start :: bM) (pos + Z.of_nat k + 1 + len body :: eM) (Z.of_nat k :: tS) (Z.of_nat k :: sC)
             false (pos + Z.of_nat k + 1 + len body + 1) 0 0.
Proof. exact scan_text_line. Qed.
Print Assumptions C06_scanned_text_row.

(* ... and for the blank line  blank^k LF  (a quoted blank line '> ' has k = 0: empty) *)
Theorem C06_scanned_blank_row :
  forall k n bM eM tS sC start pos,
    scan_loop n (mkScan bM eM tS sC false start 0 0) pos (repeat_z 32 k ++ [10])
    = mkScan (start :: bM) (pos + Z.of_nat k :: eM) (Z.of_nat k :: tS) (Z.of_nat k :: sC) false (pos + Z.of_nat k + 1) 0 0.
Proof. exact scan_blank_line. Qed.
Print Assumptions C06_scanned_blank_row.

(* ---- the quote law itself, on one-line paragraph documents ----
   For EVERY line s that starts with a letter, has no line end inside and no blank at its end, every
   configuration whose block chain reaches the block quote rule through table / code / fence only and has
   the paragraph rule, any inline configuration and any env: parse("> " s LF) is exactly one block quote
   whose contents are the tokens of parse(s LF) one level deeper - same maps, same inline content, same
   children (the same inline_parse call) - between blockquote_open (map [0,1], markup ">") and
   blockquote_close.  The block quote rule is run symbolically: marker scan, table rewrite, nested block loop
   on the rewritten tables (every rule of the chain on the line at its offset), map patch, table restore. *)
From MD Require Import Model.Core Model.Inline Model.Pipeline Lemmas.ParaLine Lemmas.QuoteLine.

Theorem C06_quote_nests_paragraph :
  forall cfg rf cf lt s, line_ok s -> mem_z 13 s = false -> mem_z 0 s = false ->
  forall rpre rpost, c_rules (p_block cfg) = rpre ++ nm_paragraph :: rpost ->
    Forall (fun n => str_eqb n nm_paragraph = false) rpre ->
  forall bpre bpost, c_rules (p_block cfg) = bpre ++ nm_blockquote :: bpost ->
    Forall (fun n => n = nm_table \/ n = nm_code \/ n = nm_fence) bpre ->
    1 < c_maxNesting (p_block cfg) ->
    p_core cfg = [n_normalize; n_block; n_inline; n_text_join] ->
  forall env,
    parse cfg rf cf lt (s ++ [10]) env
    = (do toks <- inline_parse (p_inline cfg) rf cf lt s env [];
       Ok ([p_open; set_children (p_inl s) (Some (join_children toks)); p_close], env))
    /\ parse cfg rf cf lt ([62; 32] ++ s ++ [10]) env
    = (do toks <- inline_parse (p_inline cfg) rf cf lt s env [];
       Ok (bq_open_tok :: map deeper [p_open; set_children (p_inl s) (Some (join_children toks)); p_close] ++ [bq_close_tok], env)).
Proof. exact NestLine.quote_nests_paragraph. Qed.
Print Assumptions C06_quote_nests_paragraph.

(* the nested block loop on a line that begins at an offset inside the source - what it sees once containers have
   moved bMarks past pre1 (block quote markers) and masked pre2 through tShift / sCount / blkIndent (a list marker
   and its blanks, tab-free): one paragraph with the characters from the offset on, at the container's level *)
Theorem C06_nested_loop_on_shifted_line :
  forall cfg rf cf pre1 pre2 s bs li lv, line_ok s -> (forall x, In x pre2 -> x <> 9) ->
  forall rpre rpost, c_rules cfg = rpre ++ nm_paragraph :: rpost ->
    Forall (fun n => str_eqb n nm_paragraph = false) rpre -> lv < c_maxNesting cfg ->
  forall d st, off_line st pre1 pre2 s bs li lv -> b_line st = 0 ->
  exists st', tokenize cfg rf cf (S d) st 0 1 = Ok st'
    /\ off_line st' pre1 pre2 s bs li lv /\ b_tokens st' = b_tokens st ++ para_tokens s lv /\ b_env st' = b_env st /\ b_line st' = 1
    /\ b_tight st' = true.
Proof.
  intros cfg rf cf pre1 pre2 s bs li lv Hs Hp2 rpre rpost HR Hpre Hnest d st O _.
  exact (tokenize_off_line cfg rf cf pre1 pre2 s bs li lv Hs Hp2 rpre rpost HR Hpre Hnest d st O).
Qed.
Print Assumptions C06_nested_loop_on_shifted_line.

(* ---- the list item law, on one-line paragraph documents ----
   Same class of lines; every configuration whose block chain reaches the list rule through table / code / fence /
   blockquote / hr only and has the paragraph rule: parse("- " s LF) is a one-item tight bullet list whose item contains
   the tokens of parse(s LF) two levels deeper - same maps, same inline content, same children - with the paragraph
   tokens hidden (the property's "modulo the tight-list hidden flag").  The list rule is run symbolically: marker scans,
   item loop, tShift / sCount / blkIndent rewrite, nested block loop, restores, map patches, markTightParagraphs. *)
Theorem C06_item_nests_paragraph :
  forall cfg rf cf lt s, line_ok s -> mem_z 13 s = false -> mem_z 0 s = false ->
  forall rpre rpost, c_rules (p_block cfg) = rpre ++ nm_paragraph :: rpost ->
    Forall (fun n => str_eqb n nm_paragraph = false) rpre ->
  forall bpre bpost, c_rules (p_block cfg) = bpre ++ nm_list :: bpost ->
    Forall (fun n => n = nm_table \/ n = nm_code \/ n = nm_fence \/ n = nm_blockquote \/ n = nm_hr) bpre ->
    2 < c_maxNesting (p_block cfg) ->
    p_core cfg = [n_normalize; n_block; n_inline; n_text_join] ->
  forall env,
    parse cfg rf cf lt (s ++ [10]) env
    = (do toks <- inline_parse (p_inline cfg) rf cf lt s env [];
       Ok ([p_open; set_children (p_inl s) (Some (join_children toks)); p_close], env))
    /\ parse cfg rf cf lt ([45; 32] ++ s ++ [10]) env
    = (do toks <- inline_parse (p_inline cfg) rf cf lt s env [];
       Ok (ul_open_tok :: li_open_tok
           :: hide_para (map deeper2 [p_open; set_children (p_inl s) (Some (join_children toks)); p_close])
           ++ [li_close_tok; ul_close_tok], env)).
Proof. exact NestLine.item_nests_paragraph. Qed.
Print Assumptions C06_item_nests_paragraph.

Example C06_quote_hypotheses_met :
  line_ok [102; 111; 111; 32; 42; 98; 42]
  /\ [nm_table; nm_code; nm_fence; nm_blockquote; nm_hr; nm_list; nm_reference; nm_html_block; nm_heading; nm_lheading; nm_paragraph]
     = [nm_table; nm_code; nm_fence] ++ nm_blockquote :: [nm_hr; nm_list; nm_reference; nm_html_block; nm_heading; nm_lheading; nm_paragraph].
Proof. exact quote_line_example. Qed.

(* ---- containers within containers, any depth ----
   For EVERY list cs of containers - block quote markers "> ", bullet markers ('-', '*' or '+' followed by one to four
   spaces) and ordered markers (one to nine digits, '.' or ')', one to four spaces): okc - in any order, whose weight
   (1 per quote, 2 per item) stays below maxNesting, every line s of the class above, every configuration whose block
   chain is  table/code/fence*  blockquote  table/code/fence/hr*  list  (rules other than paragraph)*  paragraph ...,
   any inline configuration and any env:  parse(prefix(cs) s LF)  is the paragraph of s wrapped in exactly those
   containers, level by level (wrapc: quote = +1, item = +2; every map [0,1]; the paragraph tokens hidden exactly when
   the paragraph sits directly in an item), and the inline token carries the children of the same inline_parse call as
   parse(s LF).  Induction on cs; each container rule is run on a line that begins anywhere inside the source
   (off_line) and hands the rest of the line to the nested block loop (Lemmas/NestLine.v). *)
From MD Require Import Lemmas.NestLine.

Theorem C06_containers_within_containers :
  forall cfg rf cf lt s, line_ok s -> mem_z 13 s = false -> mem_z 0 s = false ->
  forall RA RB RC RD, c_rules (p_block cfg) = RA ++ nm_blockquote :: RB ++ nm_list :: RC ++ nm_paragraph :: RD ->
    Forall (fun n => n = nm_table \/ n = nm_code \/ n = nm_fence) RA ->
    Forall (fun n => n = nm_table \/ n = nm_code \/ n = nm_fence \/ n = nm_hr) RB ->
    Forall (fun n => str_eqb n nm_paragraph = false) RC ->
    p_core cfg = [n_normalize; n_block; n_inline; n_text_join] ->
  forall cs, Forall okc cs -> weight cs < c_maxNesting (p_block cfg) ->
  forall env,
    parse cfg rf cf lt (prefix cs ++ s ++ [10]) env
    = (do toks <- inline_parse (p_inline cfg) rf cf lt s env [];
       Ok (wrapc s cs 0 false (join_children toks), env)).
Proof. exact parse_nested. Qed.
Print Assumptions C06_containers_within_containers.

(* what wrapc says, for reading the theorem: one more container = the same tokens one (quote) or two (item) levels deeper *)
Definition C06_wrapc_means :
  forall s cs m k lv hid ch,
    wrapc s (CQ :: cs) lv hid ch = bq_open_at lv :: wrapc s cs (lv + 1) false ch ++ [bq_close_at lv]
    /\ wrapc s (CI m k :: cs) lv hid ch
       = ul_open_at m lv :: li_open_at m (lv + 1) :: wrapc s cs (lv + 2) true ch ++ [li_close_at m (lv + 1); ul_close_at m lv]
    /\ wrapc s [] lv false ch = para_ch s lv ch /\ wrapc s [] lv true ch = hide_para (para_ch s lv ch)
    /\ prefix (CQ :: cs) = [62; 32] ++ prefix cs /\ prefix (CI m k :: cs) = (m :: repeat 32 k) ++ prefix cs
    /\ (okc (CI m k) <-> (m = 42 \/ m = 45 \/ m = 43) /\ (1 <= k <= 4)%nat)
  := fun s cs m k lv hid ch => conj eq_refl (conj eq_refl (conj eq_refl (conj eq_refl (conj eq_refl (conj eq_refl (conj (fun x => x) (fun x => x))))))).

(* ... and an ordered marker: the list records the number written as its start attribute (unless it is 1), the item records
   the digits written as its info, both record the delimiter as markup *)
Definition C06_wrapc_ordered_means :
  forall s cs d0 ds dl k lv hid ch,
    wrapc s (CO d0 ds dl k :: cs) lv hid ch
    = ol_open_at dl (int_of_digits (d0 :: ds)) lv :: li_open_g true (d0 :: ds) dl (lv + 1) :: wrapc s cs (lv + 2) true ch
      ++ [li_close_at dl (lv + 1); ol_close_at dl lv]
    /\ prefix (CO d0 ds dl k :: cs) = ((d0 :: ds) ++ dl :: repeat 32 k) ++ prefix cs
    /\ tinfo (li_open_g true (d0 :: ds) dl (lv + 1)) = d0 :: ds /\ tmarkup (li_open_g true (d0 :: ds) dl (lv + 1)) = [dl]
    /\ tmarkup (ol_open_at dl (int_of_digits (d0 :: ds)) lv) = [dl]
    /\ (int_of_digits (d0 :: ds) <> 1 -> tattrs (ol_open_at dl (int_of_digits (d0 :: ds)) lv) = [(s_start, AInt (int_of_digits (d0 :: ds)))])
    /\ (okc (CO d0 ds dl k) <-> is_digit d0 = true /\ Forall (fun d => is_digit d = true) ds /\ len ds <= 8 /\ (dl = 46 \/ dl = 41) /\ (1 <= k <= 4)%nat).
Proof.
  intros s cs d0 ds dl k lv hid ch. split; [reflexivity|]. split; [reflexivity|]. split; [reflexivity|]. split; [reflexivity|].
  split; [unfold ol_open_at; destruct (negb (int_of_digits (d0 :: ds) =? 1)); reflexivity|].
  split; [|split; exact (fun x => x)].
  intros H. unfold ol_open_at. destruct (int_of_digits (d0 :: ds) =? 1) eqn:E; [apply Z.eqb_eq in E; contradiction | reflexivity].
Qed.

(* the nested block loop, for any containers in front of the rest of the line, from any well-placed state *)
Theorem C06_nested_loop_any_containers :
  forall cfg rf cf s, line_ok s ->
  forall RA RB RC RD, c_rules cfg = RA ++ nm_blockquote :: RB ++ nm_list :: RC ++ nm_paragraph :: RD ->
    Forall (fun n => n = nm_table \/ n = nm_code \/ n = nm_fence) RA ->
    Forall (fun n => n = nm_table \/ n = nm_code \/ n = nm_fence \/ n = nm_hr) RB ->
    Forall (fun n => str_eqb n nm_paragraph = false) RC ->
  forall cs, Forall okc cs -> forall pre1 pre2 bs li lv d,
    (forall x, In x pre2 -> x <> 9) -> lv + weight cs < c_maxNesting cfg -> (length cs <= d)%nat ->
    rec_adds (tokenize cfg rf cf (S d)) pre1 pre2 (prefix cs ++ s) bs li lv (wrap s cs lv false).
Proof. exact nest. Qed.
Print Assumptions C06_nested_loop_any_containers.

Example C06_nested_hypotheses_met :
  [nm_table; nm_code; nm_fence; nm_blockquote; nm_hr; nm_list; nm_reference; nm_html_block; nm_heading; nm_lheading; nm_paragraph]
  = [nm_table; nm_code; nm_fence] ++ nm_blockquote :: [nm_hr] ++ nm_list :: [nm_reference; nm_html_block; nm_heading; nm_lheading] ++ nm_paragraph :: []
  /\ prefix [CQ; CI 45 1; CO 49 [50] 46 2; CQ] ++ [102; 111; 111] ++ [10] = [62; 32; 45; 32; 49; 50; 46; 32; 32; 62; 32; 102; 111; 111; 10]
  /\ weight [CQ; CI 45 1; CO 49 [50] 46 2; CQ] = 6 /\ Forall okc [CQ; CI 45 1; CO 49 [50] 46 2; CQ].
Proof. exact nested_example. Qed.
