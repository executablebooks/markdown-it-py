(* C07 -- top-level blocks are parsed independently.  Proved so far: the per-line offset tables
   carry nothing across a line end - the line scanner is a left fold that splits at any point,
   after a line feed it is back in its initial mode (indentation counters zero, next line
   starting right after the LF), and for EVERY A (newline-terminated) and B the tables of
   A + blank line + B are the tables of A followed by the tables of B moved by len A + 1
   (C07_tables_concat): the block loop starts B on exactly the rows it would see alone.  No rule call leaks container context:
   blkIndent, listIndent and the level come back from every rule call whatever its outcome
   (C07_rule_restores_context, C07_rule_restores_level), and the line tables, rewritten in place by
   the container rules, are back as they were after every block-loop call and at the end of the parse
   (C07_tokenize_restores_tables, C07_block_parse_restores_tables).  That the full
   concatenation law follows is decided on the implementation and through the correspondence.  Only statements and [exact]. *)
From MD Require Import Base.Py Model.StateBlock Model.Block Lemmas.BlockLemmas Lemmas.MapWhole Lemmas.NoRaise
     Lemmas.TablesRestore Lemmas.ScanLemmas.

Theorem C07_line_scan_splits :
  forall n a s pos b, scan_loop n s pos (a ++ b) = scan_loop n (scan_loop n s pos a) (pos + len a) b.
Proof. exact scan_loop_app. Qed.
Print Assumptions C07_line_scan_splits.

Theorem C07_scanner_forgets_at_lf :
  forall n s pos,
    let s' := scan_step n s pos 10 in
    sc_found s' = false /\ sc_indent s' = 0 /\ sc_offset s' = 0 /\ sc_start s' = pos + 1
    /\ sc_bM s' = sc_start s :: sc_bM s /\ sc_eM s' = pos :: sc_eM s
    /\ sc_tS s' = sc_indent s :: sc_tS s /\ sc_sC s' = sc_offset s :: sc_sC s.
Proof. exact scan_step_lf. Qed.
Print Assumptions C07_scanner_forgets_at_lf.

(* the line tables of  A LF B  (A = a LF newline-terminated; the extra LF is the blank line):
   those of A, then those of B with offsets moved by  len A + 1 ; the sentinel row of A doubles
   as the row of the blank line; lineMax adds up.  No side condition on a or b. *)
Theorem C07_tables_concat :
  forall a b env toks env1 toks1 env2 toks2,
    let A := a ++ [10] in
    let d := len A + 1 in
    let s := state_init (A ++ [10] ++ b) env toks in
    let sa := state_init A env1 toks1 in
    let sb := state_init b env2 toks2 in
    b_bMarks s = b_bMarks sa ++ map (Z.add d) (b_bMarks sb)
    /\ b_eMarks s = b_eMarks sa ++ map (Z.add d) (b_eMarks sb)
    /\ b_tShift s = b_tShift sa ++ b_tShift sb
    /\ b_sCount s = b_sCount sa ++ b_sCount sb
    /\ b_bsCount s = b_bsCount sa ++ b_bsCount sb
    /\ b_lineMax s = b_lineMax sa + 1 + b_lineMax sb.
Proof. exact tables_concat. Qed.
Print Assumptions C07_tables_concat.

(* ---- no container context leaks from one block into the next ------------------------------------ *)
From MD Require Import Model.Block Lemmas.MapWhole Lemmas.BlockWF Lemmas.CtxRestore.

(* One rule call from the line loop - any rule name, successful or not, silent or not, with the
   nested tokenize at any depth as its callback: blkIndent and listIndent come back exactly as they
   were.  (The five line tables, lineMax and src come back too: C01_nested_tokenize_restores_tables;
   the nesting level: C02_block_stream_balanced.)  What a block leaves behind is tokens, the
   cursor, env, the tight flag - recomputed in every iteration - and parentType. *)
Theorem C07_rule_restores_context :
  forall cfg rf cf, silent_terms cfg ->
  forall d n st sl el silent b st',
  apply_rule cfg rf cf (tokenize cfg rf cf d) (terminated cfg rf cf) n st sl el silent = Ok (b, st') ->
  b_blkIndent st' = b_blkIndent st /\ b_listIndent st' = b_listIndent st.
Proof. intros cfg rf cf _. exact (rule_restores_context cfg rf cf). Qed.
Print Assumptions C07_rule_restores_context.

(* the block loop itself, at any depth (so also: the whole document ends with the context it began with) *)
Theorem C07_tokenize_restores_context :
  forall cfg rf cf, silent_terms cfg -> forall d s a b s',
  tokenize cfg rf cf d s a b = Ok s' -> b_blkIndent s' = b_blkIndent s /\ b_listIndent s' = b_listIndent s.
Proof. intros cfg rf cf _. exact (tokenize_x cfg rf cf). Qed.
Print Assumptions C07_tokenize_restores_context.

(* ... and the nesting level *)
Theorem C07_rule_restores_level :
  forall cfg rf cf d n st sl el silent b st',
  apply_rule cfg rf cf (tokenize cfg rf cf d) (terminated cfg rf cf) n st sl el silent = Ok (b, st') ->
  b_level st' = b_level st.
Proof.
  intros cfg rf cf d n st sl el silent b st' H.
  exact (proj1 (apply_rule_ext cfg rf cf _ _ (tokenize_ok cfg rf cf d) (terminated_ok cfg rf cf) _ _ _ _ _ _ _ H)).
Qed.
Print Assumptions C07_rule_restores_level.

(* ---- the indentation bookkeeping does not leak either ----
   Block quotes and list items rewrite bMarks / tShift / sCount / bsCount in place for the lines
   they contain.  Every call of the block loop, at any depth, on any state whose tables are well
   formed (RI: rows inside the source; TI / CI: the table invariants that fresh tables satisfy and
   every rule keeps), returns with source, lineMax and all five tables exactly as it found them. *)
Theorem C07_tokenize_restores_tables :
  forall cfg rf cf N d st a b st',
    term_names_ok cfg -> mem_str nm_paragraph (c_rules cfg) = true ->
    RI N st -> TI st -> CI st -> 0 <= a -> a < b -> b <= b_lineMax st ->
    tokenize cfg rf cf d st a b = Ok st' ->
    (b_src st' = b_src st /\ b_bMarks st' = b_bMarks st /\ b_eMarks st' = b_eMarks st /\ b_tShift st' = b_tShift st
     /\ b_sCount st' = b_sCount st /\ b_bsCount st' = b_bsCount st /\ b_lineMax st' = b_lineMax st)
    /\ a <= b_line st' <= b_lineMax st.
Proof. exact tokenize_tables. Qed.
Print Assumptions C07_tokenize_restores_tables.

(* the whole block parser: what it leaves in the tables is what the line scanner put there *)
Theorem C07_block_parse_restores_tables :
  forall cfg rf cf src env toks st,
    term_names_ok cfg -> mem_str nm_paragraph (c_rules cfg) = true ->
    block_parse cfg rf cf src env toks = Ok st ->
    let s0 := state_init src env toks in
    b_src st = b_src s0 /\ b_bMarks st = b_bMarks s0 /\ b_eMarks st = b_eMarks s0 /\ b_tShift st = b_tShift s0
    /\ b_sCount st = b_sCount s0 /\ b_bsCount st = b_bsCount s0 /\ b_lineMax st = b_lineMax s0.
Proof. exact block_parse_tables. Qed.
Print Assumptions C07_block_parse_restores_tables.

(* the hypotheses are met by the tables of every source *)
Theorem C07_fresh_tables_well_formed :
  forall src env toks, let s0 := state_init src env toks in RI (b_lineMax s0) s0 /\ TI s0 /\ CI s0.
Proof. exact (fun src env toks => conj (state_init_RI src env toks) (conj (state_init_TI src env toks) (state_init_CI src env toks))). Qed.
Print Assumptions C07_fresh_tables_well_formed.
