(* C15 -- tokens survive serialisation and tree conversion; rendering is repeatable.
   All statements quantify over ALL tokens / token lists (a superset of what the parser
   can produce).  Only statements and [exact]. *)
From MD Require Import Base.Py Model.Token Model.Render Model.Tree Lemmas.TokenLemmas Lemmas.TreeLemmas
     Lemmas.RenderLemmas.

(* Token.from_dict(t.as_dict(children=c, as_upstream=u)) == t for every flag combination,
   for every token whose attrs dict has unique keys (true of every Python dict), at any depth *)
Theorem C15_dict_roundtrip :
  forall t, attrs_okb t = true ->
  forall children upstream, from_dict (depth t) (as_dict children upstream t) = Some t.
Proof. exact dict_roundtrip_all. Qed.
Print Assumptions C15_dict_roundtrip.

(* hence the round-tripped stream renders to the same HTML (it is the same stream) *)
Theorem C15_dict_roundtrip_render :
  forall o ts c u, Forall (fun t => attrs_okb t = true) ts ->
    forall ts', map (fun t => from_dict (depth t) (as_dict c u t)) ts = map Some ts' -> render o ts' = render o ts.
Proof.
  intros o ts c u H ts' E. f_equal.
  revert ts' E. induction H as [|t l Ht Hl IH]; intros [|t' l'] E; cbn in E; try discriminate; [reflexivity|].
  injection E as E1 E2. rewrite (dict_roundtrip_all t Ht c u) in E1. injection E1 as ->. f_equal. apply IH, E2.
Qed.
Print Assumptions C15_dict_roundtrip_render.

(* SyntaxTreeNode(tokens).to_tokens() is the identical token sequence *)
Theorem C15_tree_roundtrip : forall ts n, build ts = Ok n -> to_tokens n = ts.
Proof. exact tree_roundtrip. Qed.
Print Assumptions C15_tree_roundtrip.

(* SyntaxTreeNode(tokens).walk() follows stream order: it yields the tokens in the order of the stream - closing tokens, which
   get no node of their own, left out; the children of an inline / image token directly after it, recursively - for every stream
   whose tokens have nesting -1 / 0 / +1 and carry children only when unnested *)
From MD Require Import Model.StateBlock Model.Block Lemmas.BlockKinds Lemmas.TreeWalk.
Theorem C15_walk_follows_stream_order :
  forall ts n, Forall wfw ts -> build ts = Ok n -> walk_tokens n = stream_walk_list ts.
Proof. exact tree_walk_stream_order. Qed.
Print Assumptions C15_walk_follows_stream_order.

(* what [wfw] says, one level unfolded *)
Theorem C15_wfw_means :
  forall t, wfw t <-> (tnesting t = -1 \/ tnesting t = 0 \/ tnesting t = 1)
                  /\ (tnesting t <> 0 -> tchildren t = None \/ tchildren t = Some [])
                  /\ match tchildren t with Some l => Forall wfw l | None => True end.
Proof. exact wfw_unfold. Qed.
Print Assumptions C15_wfw_means.

(* every stream the block parser returns, under every configuration with chains inside the registered rule set, builds into a
   tree whose walk is the stream without its closing tokens, in order *)
Theorem C15_block_parse_walk :
  forall cfg rf cf, chains_sub cfg -> forall src env st,
  block_parse cfg rf cf src env [] = Ok st ->
  exists n, build (b_tokens st) = Ok n /\ walk_tokens n = filter (fun t => negb (tnesting t =? -1)) (b_tokens st).
Proof. exact block_parse_tree_walk. Qed.
Print Assumptions C15_block_parse_walk.

(* rendering twice: same output, and the tokens left by the first render are a fixed point
   (the only write-back, the image alt attribute, is idempotent) *)
Theorem C15_render_repeatable :
  forall o ts h ts', render o ts = Ok (h, ts') -> render o ts' = Ok (h, ts').
Proof. exact render_repeatable. Qed.
Print Assumptions C15_render_repeatable.

(* and the first render changes nothing but attrs: type, tag, nesting, hidden of every token stay *)
Theorem C15_render_keeps_structure :
  forall o l p cs l', render_list o p l = Ok (cs, l') -> map core l' = map core l.
Proof. intros o l p cs l' H. exact (proj1 (render_list_repeat o l p p cs l' eq_refl H)). Qed.
Print Assumptions C15_render_keeps_structure.

(* non-vacuity: an image with a nested description and an ordered-list start attribute *)
Example C15_nonvacuous :
  let img := Tok [105;109;97;103;101] [105;109;103] 0 [([115;114;99], AStr [120]); ([97;108;116], AStr [])] None 1
                 (Some [Tok [116;101;120;116] [] 0 [] None 0 None [97] [] [] [] false false]) [97] [] [] [] false false in
  let ol := Tok [111;114;100;101;114;101;100;95;108;105;115;116;95;111;112;101;110] [111;108] 1
                [([115;116;97;114;116], AInt 7)] (Some (0, 2)) 0 None [] [46] [] [] true false in
  attrs_okb img = true /\ from_dict (depth img) (as_dict true true img) = Some img
  /\ from_dict (depth ol) (as_dict false false ol) = Some ol.
Proof. vm_compute. repeat split; reflexivity. Qed.
