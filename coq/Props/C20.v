(* C20 -- work grows at most linearly on adversarial inputs: the guards.  Proved: skipToken is
   memoised (a hit runs no rule; after a miss the position is cached, so its body runs at most
   once per position) and beyond maxNesting the tail is skipped, not recursed into.
   Family-level growth is measured, not proved (see DESIGN.md).  Only statements and [exact]. *)
From RecordUpdate Require Import RecordUpdate.
From MD Require Import Base.Py Model.Inline Lemmas.InlineLemmas.

Theorem C20_skip_token_hit :
  forall cfg rf cf lt F st p,
    zlookup (i_pos st) (i_cache st) = Some p -> skip_token cfg rf cf lt F st = Ok (st <| i_pos := p |>).
Proof. exact skip_token_hit. Qed.
Print Assumptions C20_skip_token_hit.

Theorem C20_skip_token_memo :
  forall cfg rf cf lt F st st',
    zlookup (i_pos st) (i_cache st) = None ->
    skip_token cfg rf cf lt F st = Ok st' -> zlookup (i_pos st) (i_cache st') = Some (i_pos st').
Proof. exact skip_token_memo. Qed.
Print Assumptions C20_skip_token_memo.

Theorem C20_nesting_cap :
  forall cfg rf cf lt F st,
    zlookup (i_pos st) (i_cache st) = None -> ic_maxNesting cfg <= i_level st ->
    exists st', skip_token cfg rf cf lt F st = Ok st' /\ i_pos st' = i_posMax st + 1.
Proof. exact skip_token_cap. Qed.
Print Assumptions C20_nesting_cap.

(* ---- the block line loop runs at most once per line ------------------------------------- *)
From MD Require Import Model.StateBlock Model.Block Lemmas.MapWhole.

(* ParserBlock.tokenize's while loop, modelled on explicit fuel: whenever it returns a state at all,
   it returns the same state for EVERY fuel above the number of lines left (el - line) - because
   every pass over the rule chain moves the cursor forward by at least one line.  The loop body
   therefore runs at most el - line + 1 times, for every source and configuration with the
   paragraph rule: the number of rule-chain passes is linear in the number of lines (what is
   NOT covered: the cost of one pass, e.g. the terminator scans of the known findings). *)
Theorem C20_block_loop_once_per_line :
  forall cfg rf cf rec, rec_c rec -> silent_terms cfg -> mem_str nm_paragraph (c_rules cfg) = true ->
  forall f1 f2 st line el hel st',
    tok_loop cfg rf cf f1 rec st line el hel = Ok st' ->
    0 <= line -> line <= b_lineMax st -> el <= b_lineMax st -> TI st ->
    (Z.to_nat (el - line) < f2)%nat ->
    tok_loop cfg rf cf f2 rec st line el hel = Ok st'.
Proof. exact tok_loop_fuel. Qed.
Print Assumptions C20_block_loop_once_per_line.

(* ---- skipToken always advances ------------------------------------------------------------------ *)
From MD Require Import Lemmas.InlineSafe Lemmas.InlineProgress.
(* at every recursion depth and for every rule list: a skipToken call that returns has moved the
   position forward (memo hit, successful rule, or the one-character fallback) - with the memo table
   (C20_skip_token_memo) each position of a paragraph is scanned forward at most once per level *)
Theorem C20_skip_token_advances :
  forall cfg rf cf lt, ic_linkify cfg = false -> order_ok (ic_rules2 cfg) = true ->
  forall d st st', PI st -> i_pos st < i_posMax st ->
  skip_token cfg rf cf lt (ifs cfg rf cf lt d) st = Ok st' -> i_pos st < i_pos st'.
Proof. exact skip_token_advances. Qed.
Print Assumptions C20_skip_token_advances.
