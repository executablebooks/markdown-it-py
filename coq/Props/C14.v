(* C14 -- an exception escaping from user code leaves the instance intact.
   Only statements and [exact]. *)
From MD Require Import Base.Py Model.Ruler Model.Instance Model.World Lemmas.InstanceLemmas Lemmas.WorldLemmas
     Lemmas.ResetLemmas.

(* reset_rules: for ANY body of management calls (incl. nested reset_rules blocks),
   raising at its end or inside, the active rule set of every chain on exit is the
   one in force on entry.  (Rule names unique per chain.) *)
Theorem C14_reset_rules_restores :
  forall body r i,
    let i1 := fst (run_body true r body i) in
    (forall k, NoDup (all_names (get_chain i1 k))) ->
    let i' := fst (mstep true i (MReset body r)) in
    forall k n, In n (active_names (get_chain i' k)) <-> In n (active_names (get_chain i k)).
Proof. exact reset_rules_restores. Qed.
Print Assumptions C14_reset_rules_restores.

(* the exception that propagates is the body's own; the restore never raises *)
Theorem C14_reset_rules_propagates :
  forall body r i,
    let i1 := fst (run_body true r body i) in
    (forall k, NoDup (all_names (get_chain i1 k))) ->
    snd (mstep true i (MReset body r)) =
    match snd (run_body true r body i) with Ok _ => Ok MONone | bad => bad end.
Proof. exact reset_rules_result. Qed.
Print Assumptions C14_reset_rules_propagates.

(* registered rules are never lost, whatever happens *)
Theorem C14_rules_never_lost :
  forall fin (o : mop) i, names_le i (fst (mstep fin i o)).
Proof. exact mstep_names_le. Qed.
Print Assumptions C14_rules_never_lost.

(* a parse or render that fails at ANY point (a plugin rule, a render rule or the
   highlight callback raising at its k-th invocation) has touched the instance only
   through getRules on some chains: the configuration proper is unchanged and the
   caches stay coherent, so every later call behaves as if it never happened *)
Theorem C14_failed_parse_leaves_instance :
  forall chains i, ICoherent i -> Sim (parse_touch chains i) i.
Proof. exact parse_touch_sim. Qed.
Print Assumptions C14_failed_parse_leaves_instance.

Theorem C14_after_failure_same_behaviour :
  forall fin (o : mop) chains i, ICoherent i ->
    RSim (mstep fin (parse_touch chains i) o) (mstep fin i o).
Proof. intros fin o chains i H. apply mstep_sim, parse_touch_sim, H. Qed.
Print Assumptions C14_after_failure_same_behaviour.

(* every facade call keeps all four caches coherent, raising or not *)
Theorem C14_coherent_after_any_call :
  forall fin (o : mop) i, ICoherent i -> ICoherent (fst (mstep fin i o)).
Proof. exact mstep_coherent. Qed.
Print Assumptions C14_coherent_after_any_call.

(* the generator without try/finally (before the repair) is refuted *)
Theorem C14_legacy_refuted :
  let i' := fst (mstep false leak_inst (MReset [MDisable [[101; 109]] false] (Some 3))) in
  active_names (i_inline i') = [[116; 120]] /\ active_names (i_inline leak_inst) = [[101; 109]; [116; 120]].
Proof. exact reset_rules_leak_refuted. Qed.
Print Assumptions C14_legacy_refuted.

(* non-vacuity: a nested block whose inner body raises *)
Example C14_nonvacuous :
  let i := bare_inst [] [] [([101; 109], []); ([116; 120], [])] [] in
  let body := [MDisable [[101; 109]] false; MReset [MDisable [[116; 120]] false] (Some 1); MEnable [[101; 109]] false] in
  let r := mstep true i (MReset body None) in
  active_names (i_inline (fst r)) = [[101; 109]; [116; 120]] /\ snd r = Raise (UserExn 1).
Proof. vm_compute. split; reflexivity. Qed.
