(* C09 -- backslash-escaping makes any text literal.  END TO END ON THE MODEL
   (C09_render_inline_escaped): for EVERY text t made of runs of characters the text rule does not
   stop at and of ASCII punctuation characters, renderInline of the source in which each
   punctuation character is preceded by a backslash is exactly escapeHtml(t) -- for every
   configuration in which the escape rule is reached through text / newline / linkify(off) only,
   whatever inline rules follow it and whatever post-processing rules are enabled.  Inline level
   (C09_inline_escaped_text): the inline parser yields only text / text_special tokens whose
   concatenated content is t.  And: the escape rule turns a
   backslash followed by ANY ASCII punctuation character into a text_special token holding
   exactly that character (every such character is in the escapable table regenerated from
   /repo); text_join then folds it into text (C02_text_join_no_special).  The context statements
   are decided on the implementation each run.  Only statements and [exact]. *)
From MD Require Import Base.Py Base.Str Model.Token Model.Utils Model.Inline Model.Pipeline Model.Block
     Lemmas.InlineLemmas Lemmas.InlineEsc Lemmas.ParaLine.
From MD Require Lemmas.NestRender.
From MD Require Import Gen.Tables.

Theorem C09_every_punct_escapable : forallb (fun c => mem_z c escaped_table) md_ascii_punct = true.
Proof. exact punct_escapable. Qed.
Print Assumptions C09_every_punct_escapable.

(* the character classes the wording of the property relies on - "without leading/trailing whitespace", "each ASCII punctuation
   character" - as the code has them now: the two tables are regenerated from /repo on every run, so a change to MD_WHITESPACE or
   MD_ASCII_PUNCT stops these statements from checking (a regenerated table follows the code: no comparison of model and
   implementation can notice) *)
From MD Require Import Lemmas.TablePins.
Theorem C09_markdown_whitespace_is :
  forall c, is_white_space c = true <->
  (9 <= c <= 13 \/ c = 32 \/ c = 160 \/ c = 5760 \/ 8192 <= c <= 8202 \/ c = 8239 \/ c = 8287 \/ c = 12288).
Proof. exact is_white_space_spec. Qed.
Print Assumptions C09_markdown_whitespace_is.

Theorem C09_ascii_punctuation_is :
  md_ascii_punct = [33; 34; 35; 36; 37; 38; 39; 40; 41; 42; 43; 44; 45; 46; 47; 58; 59; 60; 61; 62; 63; 64; 91; 92; 93; 94; 95; 96; 123; 124; 125; 126].
Proof. exact md_ascii_punct_pin. Qed.
Print Assumptions C09_ascii_punctuation_is.

Theorem C09_escape_rule :
  forall st c,
    py_idx (i_src st) (i_pos st) = Ok 92 -> i_pos st + 1 < i_posMax st ->
    py_idx (i_src st) (i_pos st + 1) = Ok c -> is_md_ascii_punct c = true -> i_pending st = [] ->
    exists st', r_escape st false = Ok (true, st') /\ i_pos st' = i_pos st + 2
      /\ exists t, i_tokens st' = i_tokens st ++ [t] /\ ttype t = s_text_special_ /\ tcontent t = [c]
                   /\ tmarkup t = [92; c] /\ tnesting t = 0.
Proof. exact escape_punct. Qed.
Print Assumptions C09_escape_rule.

(* the inline parser on an escaped text: text-like tokens whose contents concatenate to the text *)
Theorem C09_inline_escaped_text :
  forall cfg reformat casefold linktext F pre post,
    ic_rules cfg = pre ++ n_escape :: post ->
    Forall (fun n => n = n_text \/ n = n_linkify \/ n = n_newline) pre -> In n_text pre ->
    ic_linkify cfg = false -> 0 < ic_maxNesting cfg ->
    forall segs env, wf segs ->
    exists toks, inline_parse_with cfg reformat casefold linktext F (src_of segs) env [] = Ok toks
                 /\ contents toks = text_of segs /\ Forall textlike toks.
Proof. exact inline_parse_esc_with. Qed.
Print Assumptions C09_inline_escaped_text.

(* renderInline(esc(t)) = escapeHtml(t) *)
Theorem C09_render_inline_escaped :
  forall cfg reformat casefold linktext pre post,
    ic_rules (p_inline cfg) = pre ++ n_escape :: post ->
    Forall (fun n => n = n_text \/ n = n_linkify \/ n = n_newline) pre -> In n_text pre ->
    ic_linkify (p_inline cfg) = false -> 0 < ic_maxNesting (p_inline cfg) ->
    p_core cfg = [n_normalize; n_block; n_inline; n_text_join] ->
    forall segs env,
      wf segs -> mem_z 13 (src_of segs) = false -> mem_z 0 (src_of segs) = false ->
      render_inline_md cfg reformat casefold linktext (src_of segs) env = Ok (escape_html (text_of segs), env).
Proof. exact render_inline_esc. Qed.
Print Assumptions C09_render_inline_escaped.

(* the paragraph context: render(esc(t) LF) = <p> escapeHtml(t) </p> LF *)
Theorem C09_render_paragraph_escaped :
  forall cfg reformat casefold linktext segs, wf segs -> line_ok (src_of segs) ->
    mem_z 13 (src_of segs) = false -> mem_z 0 (src_of segs) = false ->
  forall bpre bpost, c_rules (p_block cfg) = bpre ++ nm_paragraph :: bpost ->
    Forall (fun n => str_eqb n nm_paragraph = false) bpre -> 0 < c_maxNesting (p_block cfg) ->
    p_core cfg = [n_normalize; n_block; n_inline; n_text_join] ->
  forall ipre ipost, ic_rules (p_inline cfg) = ipre ++ n_escape :: ipost ->
    Forall (fun n => n = n_text \/ n = n_linkify \/ n = n_newline) ipre -> In n_text ipre ->
    ic_linkify (p_inline cfg) = false -> 0 < ic_maxNesting (p_inline cfg) ->
  forall env,
    render_md cfg reformat casefold linktext (src_of segs ++ [10]) env
    = Ok ([60; 112; 62] ++ escape_html (text_of segs) ++ [60; 47; 112; 62; 10], env).
Proof. exact NestRender.render_para_esc. Qed.
Print Assumptions C09_render_paragraph_escaped.

(* the heading context: render("# " esc(t) LF) = <h1> escapeHtml(t) </h1> LF, for every text whose
   escaped form starts with a letter, has no blank at either end and does not end in '#' *)
From MD Require Import Lemmas.HeadLine.
Theorem C09_render_heading_escaped :
  forall cfg reformat casefold linktext segs, wf segs -> head_ok (src_of segs) ->
    mem_z 13 (src_of segs) = false -> mem_z 0 (src_of segs) = false ->
  forall bpre bpost, c_rules (p_block cfg) = bpre ++ nm_heading :: bpost ->
    Forall (fun n => str_eqb n nm_heading = false /\ str_eqb n nm_paragraph = false /\ str_eqb n nm_lheading = false) bpre ->
    0 < c_maxNesting (p_block cfg) -> p_core cfg = [n_normalize; n_block; n_inline; n_text_join] ->
  forall ipre ipost, ic_rules (p_inline cfg) = ipre ++ n_escape :: ipost ->
    Forall (fun n => n = n_text \/ n = n_linkify \/ n = n_newline) ipre -> In n_text ipre ->
    ic_linkify (p_inline cfg) = false -> 0 < ic_maxNesting (p_inline cfg) ->
  forall env,
    render_md cfg reformat casefold linktext ((35 :: 32 :: src_of segs) ++ [10]) env
    = Ok ([60; 104; 49; 62] ++ escape_html (text_of segs) ++ [60; 47; 104; 49; 62; 10], env).
Proof. exact render_heading_esc. Qed.
Print Assumptions C09_render_heading_escaped.

(* every nesting of block quotes and list items (bullets - * + with 1-4 blanks, any depth below maxNesting):
   parse(prefix(cs) esc(t) LF) is the paragraph wrapped in those containers, and the children of its inline token
   are ONE text token whose content is exactly t - the escaped text is literal in every such context *)
From MD Require Import Model.Block Model.Render Lemmas.ParaLine Lemmas.NestLine.
Theorem C09_nested_containers_escaped :
  forall cfg rf cf lt (segs : list seg), wf segs -> line_ok (src_of segs) ->
    mem_z 13 (src_of segs) = false -> mem_z 0 (src_of segs) = false ->
  forall RA RB RC RD, c_rules (p_block cfg) = RA ++ nm_blockquote :: RB ++ nm_list :: RC ++ nm_paragraph :: RD ->
    Forall (fun n => n = nm_table \/ n = nm_code \/ n = nm_fence) RA ->
    Forall (fun n => n = nm_table \/ n = nm_code \/ n = nm_fence \/ n = nm_hr) RB ->
    Forall (fun n => str_eqb n nm_paragraph = false) RC ->
    p_core cfg = [n_normalize; n_block; n_inline; n_text_join] ->
  forall ipre ipost, ic_rules (p_inline cfg) = ipre ++ n_escape :: ipost ->
    Forall (fun n => n = n_text \/ n = n_linkify \/ n = n_newline) ipre -> In n_text ipre ->
    ic_linkify (p_inline cfg) = false -> 0 < ic_maxNesting (p_inline cfg) ->
  forall cs, Forall okc cs -> weight cs < c_maxNesting (p_block cfg) ->
  forall env, exists p,
    parse cfg rf cf lt (prefix cs ++ src_of segs ++ [10]) env = Ok (wrapc (src_of segs) cs 0 false [p], env)
    /\ ttype p = s_text /\ tcontent p = text_of segs.
Proof. exact parse_nested_escaped. Qed.
Print Assumptions C09_nested_containers_escaped.

(* ... and at the HTML level: render(prefix(cs) esc(t) LF) is escapeHtml(t) between the tags of exactly those containers
   (nest_html: <blockquote> per quote, <ul><li> per item, <p> only when the paragraph is not directly in a tight item) *)
From MD Require Import Lemmas.NestRender.
Theorem C09_render_nested_containers_escaped :
  forall cfg rf cf lt (segs : list seg), wf segs -> line_ok (src_of segs) ->
    mem_z 13 (src_of segs) = false -> mem_z 0 (src_of segs) = false ->
  forall RA RB RC RD, c_rules (p_block cfg) = RA ++ nm_blockquote :: RB ++ nm_list :: RC ++ nm_paragraph :: RD ->
    Forall (fun n => n = nm_table \/ n = nm_code \/ n = nm_fence) RA ->
    Forall (fun n => n = nm_table \/ n = nm_code \/ n = nm_fence \/ n = nm_hr) RB ->
    Forall (fun n => str_eqb n nm_paragraph = false) RC ->
    p_core cfg = [n_normalize; n_block; n_inline; n_text_join] ->
  forall ipre ipost, ic_rules (p_inline cfg) = ipre ++ n_escape :: ipost ->
    Forall (fun n => n = n_text \/ n = n_linkify \/ n = n_newline) ipre -> In n_text ipre ->
    ic_linkify (p_inline cfg) = false -> 0 < ic_maxNesting (p_inline cfg) ->
  forall cs, Forall okc cs -> weight cs < c_maxNesting (p_block cfg) ->
  forall env,
    render_md cfg rf cf lt (prefix cs ++ src_of segs ++ [10]) env
    = Ok (nest_html cs false (escape_html (text_of segs)), env).
Proof. exact render_nested_escaped. Qed.
Print Assumptions C09_render_nested_containers_escaped.

Example C09_nest_html_reads :
  nest_html [CQ; CI 45 1] false [120] = [60; 98; 108; 111; 99; 107; 113; 117; 111; 116; 101; 62; 10; 60; 117; 108; 62; 10; 60; 108; 105; 62; 120; 60; 47; 108; 105; 62; 10; 60; 47; 117; 108; 62; 10; 60; 47; 98; 108; 111; 99; 107; 113; 117; 111; 116; 101; 62; 10]
  /\ nest_html [CI 42 2; CQ] false [120] = [60; 117; 108; 62; 10; 60; 108; 105; 62; 10; 60; 98; 108; 111; 99; 107; 113; 117; 111; 116; 101; 62; 10; 60; 112; 62; 120; 60; 47; 112; 62; 10; 60; 47; 98; 108; 111; 99; 107; 113; 117; 111; 116; 101; 62; 10; 60; 47; 108; 105; 62; 10; 60; 47; 117; 108; 62; 10].
Proof. exact nest_html_examples. Qed.
