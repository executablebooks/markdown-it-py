(* C04 -- with raw HTML off, output is well-formed and contains only renderer-made
   markup.  END TO END ON THE MODEL (C04_render_safe, C04_render_inline_safe): with options.html
   off and no highlight callback, for EVERY source, env, rule configuration (any core chain, any
   block / inline rule subsets) and any value of the opaque dependencies, the string returned by
   render / renderInline is a concatenation of chunks each of which is a fixed renderer literal,
   "<tag" / "</tag" for one of 26 fixed NON-EMPTY tag names (C04_no_empty_tag: no "<>" can be written; this is
   what the text_special render rule of fix 8e8fca6 made provable), or escapeHtml of data -- never a raw chunk.  Renderer side: statements for ALL token lists without html tokens.  Parser side,
   block half: for EVERY source and configuration the tag of every token the block parser
   appends comes from a fixed vocabulary of 19 names (or is empty), and html_block tokens exist
   only when options.html is on (C04_block_tags_from_vocabulary).  Only statements and [exact]. *)
From MD Require Import Base.Py Model.Token Model.Utils Model.Render Model.StateBlock Model.Block Model.Inline
     Model.Pipeline Lemmas.EscapeLemmas Lemmas.RenderLemmas Lemmas.BlockKinds Lemmas.InlineKinds Lemmas.PipelineSafe
     Lemmas.InlineUrls Lemmas.PipelineUrls.

(* for EVERY string: the escaped form contains no < > double-quote, and every & in it
   begins one of the four entities the escaper itself writes *)
Theorem C04_escape_safe : forall s, safe (escape_html s).
Proof. exact escape_safe. Qed.
Print Assumptions C04_escape_safe.

(* the four replace passes of the source compute exactly that function *)
Theorem C04_escape_as_written : forall s, escape_html_passes s = escape_html s.
Proof. exact escape_html_passes_eq. Qed.
Print Assumptions C04_escape_as_written.

(* with no highlight callback and no html_block/html_inline token in the stream, the
   renderer's output consists only of (i) fixed renderer literals, (ii) "<tag" / "</tag"
   for the tag field of a token, (iii) escaped data: no raw chunk at all *)
Theorem C04_only_renderer_markup :
  forall tags o l p cs l',
    o_highlight o = None -> Forall (ok_top tags) l ->
    render_list o p l = Ok (cs, l') -> forallb (chunk_ok tags) cs = true.
Proof. exact render_list_ok. Qed.
Print Assumptions C04_only_renderer_markup.

Theorem C04_chunk_shape :
  forall tags c, chunk_ok tags c = true ->
  (exists s, c = CEsc s /\ chunk_html c = escape_html s)
  \/ (exists s, c = CLit s /\ chunk_html c = s /\
        (In s fixed_lits \/ exists tag, In tag tags /\ (s = 60 :: tag \/ s = 60 :: 47 :: tag))).
Proof. exact chunk_html_shape. Qed.
Print Assumptions C04_chunk_shape.

(* attribute names and values, text, code, alt text, fence class: all data positions are
   escaped chunks (instances of the theorem above, spelled out for attributes) *)
Theorem C04_attrs_escaped : forall tags t, forallb (chunk_ok tags) (render_attrs t) = true.
Proof. exact render_attrs_ok. Qed.
Print Assumptions C04_attrs_escaped.

(* parser side, block half: tags from the fixed vocabulary; html_block only with options.html *)
Theorem C04_block_tags_from_vocabulary :
  forall cfg reformat casefold, chains_sub cfg ->
  forall src env toks st,
    block_parse cfg reformat casefold src env toks = Ok st ->
    exists seg, b_tokens st = toks ++ seg
                /\ Forall (fun t => In (ttag t) block_tags /\ (ttype t = nm_html_block -> c_html cfg = true)) seg.
Proof. exact block_parse_tags. Qed.
Print Assumptions C04_block_tags_from_vocabulary.

(* the tag vocabulary of the whole parser: 19 block names and 7 inline names.  The empty tag is NOT in
   it: tokens whose tag is empty (text, text_special, definition; inline at top level) are rendered by
   rules that never write the tag, so neither "<" + "" nor "</" + "" is ever a literal of the output *)
Definition C04_all_tags : list str := all_tags.
Theorem C04_no_empty_tag :
  ~ In [] all_tags /\ length all_tags = 26%nat
  /\ chunk_ok all_tags (CLit [60]) = false /\ chunk_ok all_tags (CLit [60; 47]) = false.
Proof. exact no_empty_tag. Qed.
Print Assumptions C04_no_empty_tag.

(* end to end: html off => nothing raw reaches the output of render *)
Theorem C04_render_safe :
  forall cfg reformat casefold linktext,
    c_html (p_block cfg) = false -> ic_html (p_inline cfg) = false -> chains_sub (p_block cfg) ->
    o_highlight (p_render cfg) = None ->
    forall src env h env',
      render_md cfg reformat casefold linktext src env = Ok (h, env') ->
      exists cs, h = html_of cs /\ forallb (chunk_ok all_tags) cs = true.
Proof. exact render_md_safe. Qed.
Print Assumptions C04_render_safe.

Theorem C04_render_inline_safe :
  forall cfg reformat casefold linktext,
    c_html (p_block cfg) = false -> ic_html (p_inline cfg) = false -> chains_sub (p_block cfg) ->
    o_highlight (p_render cfg) = None ->
    forall src env h env',
      render_inline_md cfg reformat casefold linktext src env = Ok (h, env') ->
      exists cs, h = html_of cs /\ forallb (chunk_ok all_tags) cs = true.
Proof. exact render_inline_md_safe. Qed.
Print Assumptions C04_render_inline_safe.

(* the parser side on its own: every token of parse(src), and every child of an inline token, has a
   vocabulary tag and is neither html_block nor html_inline *)
Theorem C04_parse_tokens_from_vocabulary :
  forall cfg reformat casefold linktext,
    c_html (p_block cfg) = false -> ic_html (p_inline cfg) = false -> chains_sub (p_block cfg) ->
    forall src env ts env',
      parse cfg reformat casefold linktext src env = Ok (ts, env') -> Forall (ok_top all_tags) ts.
Proof. exact parse_tokens_ok. Qed.
Print Assumptions C04_parse_tokens_from_vocabulary.

(* ... nor an attribute of its own: every attribute NAME of every token of parse(src), and of every child of an
   inline token, is one of href, title, src, alt, start, style - for every source, configuration (html on or off)
   and every env whose recorded destinations are validated (the empty env, and every env a parse returns:
   C05_parse_urls_validated).  The renderer adds "class" (fence) and "alt" (image) itself. *)
Theorem C04_attribute_names_from_vocabulary :
  forall cfg reformat casefold linktext, chains_sub (p_block cfg) ->
  forall src env ts env',
    env_good reformat env ->
    parse cfg reformat casefold linktext src env = Ok (ts, env') ->
    Forall (fun t => Forall (fun kv => In (fst kv) attr_names) (tattrs t)
                     /\ forall ch, tchildren t = Some ch -> str_eqb (ttype t) s_inline = true ->
                                    Forall (fun c => Forall (fun kv => In (fst kv) attr_names) (tattrs c)) ch) ts.
Proof. exact parse_attr_names. Qed.
Print Assumptions C04_attribute_names_from_vocabulary.

Theorem C04_inline_attribute_names_from_vocabulary :
  forall cfg reformat casefold linktext, chains_sub (p_block cfg) ->
  forall src env ts env',
    env_good reformat env ->
    parse_inline cfg reformat casefold linktext src env = Ok (ts, env') -> Forall (names_inv) ts.
Proof. exact parse_inline_attr_names. Qed.
Print Assumptions C04_inline_attribute_names_from_vocabulary.

Example C04_attr_names_are : attr_names = [[104; 114; 101; 102]; [116; 105; 116; 108; 101]; [115; 114; 99]; [97; 108; 116]; [115; 116; 97; 114; 116]; [115; 116; 121; 108; 101]]
                             /\ env_good (fun s => s) env0.
Proof. split; [reflexivity | constructor]. Qed.

(* inline half on its own: the inline parser only ever leaves vocabulary tokens; html_inline needs options.html *)
Theorem C04_inline_tokens_from_vocabulary :
  forall cfg reformat casefold linktext src env tokens r,
    Forall (V cfg) tokens -> inline_parse cfg reformat casefold linktext src env tokens = Ok r -> Forall (V cfg) r.
Proof. exact inline_parse_kinds. Qed.
Print Assumptions C04_inline_tokens_from_vocabulary.
