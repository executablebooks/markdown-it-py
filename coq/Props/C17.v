(* C17 -- equivalent encodings parse identically (line endings, NUL).  The first core
   rule maps all encodings to one string before anything else looks at the source, so
   tokens, maps, env and HTML are identical.  Only statements and [exact]. *)
From MD Require Import Base.Py Base.Str Model.Core Lemmas.NormalizeLemmas.

(* any per-line mixture of LF / CR LF / lone CR spellings of a CR-free text *)
Theorem C17_line_endings :
  forall s, no_cr s -> forall choice, normalize (reencode choice s) = normalize s.
Proof. exact normalize_reencode. Qed.
Print Assumptions C17_line_endings.

Theorem C17_crlf : forall s, no_cr s -> normalize (crlf s) = normalize s.
Proof. exact normalize_crlf. Qed.
Print Assumptions C17_crlf.

Theorem C17_nul_is_fffd : forall s, normalize (nul_to_fffd s) = normalize s.
Proof. exact normalize_nul. Qed.
Print Assumptions C17_nul_is_fffd.

Theorem C17_no_cr_nul_left :
  forall s, mem_z CR (normalize s) = false /\ mem_z NUL (normalize s) = false.
Proof. exact normalize_clean. Qed.
Print Assumptions C17_no_cr_nul_left.

Theorem C17_normalize_idempotent : forall s, normalize (normalize s) = normalize s.
Proof. exact normalize_idempotent. Qed.
Print Assumptions C17_normalize_idempotent.

(* normalize AS WRITTEN - NEWLINES_RE.sub("\n", src) then NULL_RE.sub(U+FFFD, ...), the two regular expressions regenerated
   from /repo on every run and run by the backtracking matcher - is the direct function above, on every string *)
From MD Require Import Lemmas.NormalizeRe.
Theorem C17_normalize_regex_is_direct : forall s, normalize_re s = normalize s.
Proof. exact normalize_re_eq. Qed.
Print Assumptions C17_normalize_regex_is_direct.

Example C17_nonvacuous :
  normalize (reencode [1; 2; 0; 2] [97; 10; 98; 10; 10; 99; 0; 10]) = [97; 10; 98; 10; 10; 99; 65533; 10]
  /\ reencode [1; 2; 0; 2] [97; 10; 98; 10; 10; 99; 0; 10] = [97; 13; 10; 98; 13; 10; 10; 99; 0; 13].
Proof. vm_compute. split; reflexivity. Qed.

(* ---- structural tabs, top level: indentation columns ------------------------------------- *)
From MD Require Import Model.StateBlock Lemmas.TabCols.

(* For EVERY document made of lines  blanks ++ rest ++ LF  (blanks: spaces and tabs; rest empty or
   starting with a non-blank, without line feed): the indentation column the block parser records
   for each line (sCount) is the tab-stop column width of its blanks, tShift their number, and
   lineMax the number of lines. *)
Theorem C17_indent_is_column_width :
  forall ls env toks, Forall line_wf ls ->
    let st := state_init (doc_text ls) env toks in
    b_sCount st = map (fun l => cols 0 (l_ws l)) ls ++ [0]
    /\ b_tShift st = map (fun l => len (l_ws l)) ls ++ [0]
    /\ b_lineMax st = len ls.
Proof. exact init_columns. Qed.
Print Assumptions C17_indent_is_column_width.

(* hence any re-spelling of leading blanks that keeps each line's column - a tab for the spaces up
   to the next multiple of four or the other way round - leaves the indentation table and the
   line count unchanged *)
Theorem C17_respelling_keeps_columns :
  forall ls1 ls2 env1 toks1 env2 toks2,
    Forall line_wf ls1 -> Forall line_wf ls2 ->
    Forall2 (fun a b => cols 0 (l_ws a) = cols 0 (l_ws b)) ls1 ls2 ->
    b_sCount (state_init (doc_text ls1) env1 toks1) = b_sCount (state_init (doc_text ls2) env2 toks2)
    /\ b_lineMax (state_init (doc_text ls1) env1 toks1) = b_lineMax (state_init (doc_text ls2) env2 toks2).
Proof. exact respell_same_columns. Qed.
Print Assumptions C17_respelling_keeps_columns.

Theorem C17_tab_expansion_keeps_columns :
  forall ls env toks, Forall line_wf ls ->
    b_sCount (state_init (doc_text (map expand_line ls)) env toks) = b_sCount (state_init (doc_text ls) env toks)
    /\ b_lineMax (state_init (doc_text (map expand_line ls)) env toks) = b_lineMax (state_init (doc_text ls) env toks).
Proof. exact expand_tabs_same_columns. Qed.
Print Assumptions C17_tab_expansion_keeps_columns.

Theorem C17_expansion_column_exact :
  forall ws off, 0 <= off -> Forall blank ws ->
    cols off (expand off ws) = cols off ws /\ Forall (fun c => c = 32) (expand off ws).
Proof. intros ws off _ F. exact (conj (cols_expand ws off F) (expand_no_tab ws off F)). Qed.
Print Assumptions C17_expansion_column_exact.

(* a concrete document: "\tfoo" / " \t bar" / blank / "x" *)
Example C17_columns_apply :
  let ls := [mkLine [9] [102; 111; 111]; mkLine [32; 9; 32] [98; 97; 114]; mkLine [32; 32] []; mkLine [] [120]] in
  Forall line_wf ls /\ b_sCount (state_init (doc_text ls) env0 []) = [4; 5; 2; 0; 0].
Proof.
  cbv zeta. split; [|vm_compute; reflexivity].
  assert (B32 : blank 32) by (left; reflexivity). assert (B9 : blank 9) by (right; reflexivity).
  constructor; [|constructor; [|constructor; [|constructor; [|constructor]]]].
  - split; [repeat constructor; assumption|]. right. exists 102, [111; 111].
    split; [reflexivity|]. split; [reflexivity|]. split; [discriminate|]. intros x [<-|[<-|[]]]; discriminate.
  - split; [repeat constructor; assumption|]. right. exists 98, [97; 114].
    split; [reflexivity|]. split; [reflexivity|]. split; [discriminate|]. intros x [<-|[<-|[]]]; discriminate.
  - split; [repeat constructor; assumption|]. left. reflexivity.
  - split; [constructor|]. right. exists 120, []. split; [reflexivity|]. split; [reflexivity|]. split; [discriminate|]. intros x [].
Qed.

(* ---- tabs behind a block quote marker ----------------------------------------------------------- *)
From MD Require Import Model.Block Lemmas.QuoteLemmas Lemmas.QuoteCols.

(* the row the quote rule writes for  '>' ws (non-blank | end of line),  ws a non-empty run of spaces
   and tabs, with the marker in real column R = bsCount + sCount: the new sCount is the column the
   blanks reach (tab stops every four real columns) minus R + 2, the new bsCount is R + 2 - whether the
   first blank is a space, a tab one column wide, or a wider tab that the rule splits *)
Theorem C17_quote_marker_blanks_are_columns :
  forall src pos0 mx sc bs ws,
  0 <= pos0 -> 0 <= bs + sc -> ws <> [] -> Forall blank ws -> chars_at src (pos0 + 1) ws ->
  stop_at src (pos0 + 1 + len ws) mx -> pos0 + 1 + len ws <= mx -> mx <= len src ->
  exists q, bq_strip src pos0 mx sc bs = Ok q
    /\ q_sCount q = cols (bs + sc + 1) ws - (bs + sc + 2)
    /\ q_bsCount q = bs + sc + 2
    /\ q_bMark q + q_tShift q = pos0 + 1 + len ws
    /\ q_empty q = (mx <=? pos0 + 1 + len ws).
Proof. intros src pos0 mx sc bs ws Hp _. exact (bq_strip_columns src pos0 mx sc bs ws Hp). Qed.
Print Assumptions C17_quote_marker_blanks_are_columns.

(* hence two spellings of those blanks that reach the same column - a run with tabs and its
   expansion to spaces (C17_tab_expansion_keeps_columns) - give the same row for every later rule *)
Theorem C17_quote_marker_respelling :
  forall src1 src2 p1 p2 mx1 mx2 sc bs ws1 ws2 q1 q2,
  0 <= p1 -> 0 <= p2 -> 0 <= bs + sc -> ws1 <> [] -> ws2 <> [] -> Forall blank ws1 -> Forall blank ws2 ->
  chars_at src1 (p1 + 1) ws1 -> chars_at src2 (p2 + 1) ws2 ->
  stop_at src1 (p1 + 1 + len ws1) mx1 -> stop_at src2 (p2 + 1 + len ws2) mx2 ->
  p1 + 1 + len ws1 <= mx1 -> p2 + 1 + len ws2 <= mx2 -> mx1 <= len src1 -> mx2 <= len src2 ->
  cols (bs + sc + 1) ws1 = cols (bs + sc + 1) ws2 ->
  (mx1 <=? p1 + 1 + len ws1) = (mx2 <=? p2 + 1 + len ws2) ->
  bq_strip src1 p1 mx1 sc bs = Ok q1 -> bq_strip src2 p2 mx2 sc bs = Ok q2 ->
  q_sCount q1 = q_sCount q2 /\ q_bsCount q1 = q_bsCount q2 /\ q_empty q1 = q_empty q2.
Proof.
  intros src1 src2 p1 p2 mx1 mx2 sc bs ws1 ws2 q1 q2 A1 A2 _.
  exact (bq_strip_respelling src1 src2 p1 p2 mx1 mx2 sc bs ws1 ws2 q1 q2 A1 A2).
Qed.
Print Assumptions C17_quote_marker_respelling.

(* ---- tabs behind a list marker ------------------------------------------------------------------ *)
(* the list rule's scan of the blanks after a marker: with offset the column after the marker and bs
   the line's bsCount it returns the real column the blanks reach (minus bs) ... *)
Theorem C17_list_marker_blanks_are_columns :
  forall ws fuel src pos mx offset bs,
  Forall blank ws -> chars_at src pos ws -> stop_at src (pos + len ws) mx ->
  (length ws < fuel)%nat -> 0 <= pos -> pos + len ws <= mx ->
  list_blanks fuel src pos mx offset bs = Ok (pos + len ws, cols (offset + bs) ws - bs).
Proof. exact list_blanks_exact. Qed.
Print Assumptions C17_list_marker_blanks_are_columns.

(* ... so two spellings that reach the same column give the item the same content column *)
Theorem C17_list_marker_respelling :
  forall src1 src2 p1 p2 mx1 mx2 offset bs ws1 ws2,
  Forall blank ws1 -> Forall blank ws2 -> chars_at src1 p1 ws1 -> chars_at src2 p2 ws2 ->
  stop_at src1 (p1 + len ws1) mx1 -> stop_at src2 (p2 + len ws2) mx2 ->
  0 <= p1 -> 0 <= p2 -> p1 + len ws1 <= mx1 -> p2 + len ws2 <= mx2 -> mx1 <= len src1 -> mx2 <= len src2 ->
  cols (offset + bs) ws1 = cols (offset + bs) ws2 ->
  exists o, list_blanks (S (length src1)) src1 p1 mx1 offset bs = Ok (p1 + len ws1, o)
         /\ list_blanks (S (length src2)) src2 p2 mx2 offset bs = Ok (p2 + len ws2, o).
Proof. exact list_blanks_respelling. Qed.
Print Assumptions C17_list_marker_respelling.
