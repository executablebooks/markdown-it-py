(* Base conventions of the model: Python strings as code-point lists, Python
   exceptions as values, a few list/str primitives with Python semantics. *)
From Coq Require Export List ZArith Bool Lia.
Export ListNotations.
Open Scope Z_scope.

Definition str := list Z.

Inductive exn :=
| IndexError | KeyError | ValueError | TypeError | AttributeError
| AssertionError | RecursionError | ModuleNotFound | UserExn (n : Z).

Inductive res (A : Type) :=
| Ok (a : A) | Raise (e : exn) | OutOfFuel.
Arguments Ok {A} a.
Arguments Raise {A} e.
Arguments OutOfFuel {A}.

Definition bind {A B} (m : res A) (f : A -> res B) : res B :=
  match m with Ok a => f a | Raise e => Raise e | OutOfFuel => OutOfFuel end.
Notation "'do' x <- m ; k" := (bind m (fun x => k))
  (at level 200, x pattern, m at level 100, k at level 200, right associativity).

Lemma bind_ok {A B} (m : res A) (k : A -> res B) b : bind m k = Ok b -> exists a, m = Ok a /\ k a = Ok b.
Proof. destruct m as [a| |]; [exists a; split; [reflexivity | assumption] | discriminate | discriminate]. Qed.
Lemma bind_assoc {A B C} (m : res A) (k : A -> res B) (k' : B -> res C) :
  bind (bind m k) k' = bind m (fun x => bind (k x) k').
Proof. destruct m; reflexivity. Qed.
Lemma bind_cong {A B} (m : res A) (k k' : A -> res B) : (forall x, k x = k' x) -> bind m k = bind m k'.
Proof. intros H. destruct m; cbn [bind]; [apply H | reflexivity | reflexivity]. Qed.

(* Stepping through a hypothesis H : body = Ok r, where body is a chain of binds, tests and matches. *)
(* one step: split the head bind / if / match *)
Ltac rstep H :=
  match type of H with
  | bind ?m _ = Ok _ =>
      let x := fresh "x" in let e := fresh "e" in
      destruct m as [x|e|]; cbn [bind] in H; [|discriminate H|discriminate H]
  | (if ?c then _ else _) = Ok _ => destruct c
  | (match ?o with Some _ => _ | None => _ end) = Ok _ => destruct o
  | (let '(_, _) := ?p in _) = Ok _ => destruct p
  | Raise _ = Ok _ => discriminate H
  | OutOfFuel = Ok _ => discriminate H
  end.

(* the same step for a body whose [let]s have been kept (cbv beta delta [rule]): a bind is split without
   touching them, a head [let] is inlined; [rlet H s] instead makes it a local definition [s], so that the
   goals that follow speak of the states of the rule by the names the model gives them *)
Ltac lstep H :=
  match type of H with
  | (let x := ?v in @?k x) = ?r => change (k v = r) in H; cbv beta in H
  | bind (Ok ?x) ?k = ?r => change (k x = r) in H; cbv beta match in H
  | bind ?m ?k = ?r =>
      let x := fresh "x" in let e := fresh "e" in
      destruct m as [x|e|]; [change (k x = r) in H; cbv beta in H | discriminate H | discriminate H]
  | _ => rstep H
  end.

Ltac rlet H s :=
  match type of H with
  | (let x := ?v in @?k x) = ?r => pose (s := v); change (k s = r) in H; cbv beta in H
  end.

(* a bind whose result is named and whose equation is kept, to be turned into what the callee's lemma says *)
Tactic Notation "rbind" hyp(H) "as" simple_intropattern(p) "eqn" ":" ident(E) :=
  match type of H with
  | bind ?m _ = _ => destruct m as [p|?|] eqn:E; [lstep H | discriminate H | discriminate H]
  end.

Ltac rfinish H :=
  match type of H with
  | Ok _ = Ok _ => injection H; clear H; intros; subst
  end.


Definition exn_code (e : exn) : Z :=
  match e with
  | IndexError => 1 | KeyError => 2 | ValueError => 3 | TypeError => 4
  | AttributeError => 5 | AssertionError => 6 | RecursionError => 7
  | ModuleNotFound => 8 | UserExn n => 100 + n
  end.

(* ---- strings -------------------------------------------------------- *)

Fixpoint str_eqb (a b : str) : bool :=
  match a, b with
  | [], [] => true
  | x :: a', y :: b' => (x =? y) && str_eqb a' b'
  | _, _ => false
  end.

Lemma str_eqb_spec a b : reflect (a = b) (str_eqb a b).
Proof.
  revert b; induction a as [|x a IH]; intros [|y b]; simpl; try (constructor; congruence).
  destruct (Z.eqb_spec x y) as [->|N]; simpl.
  - destruct (IH b) as [->|N]; constructor; congruence.
  - constructor; congruence.
Qed.

Lemma str_eqb_eq a b : str_eqb a b = true <-> a = b.
Proof. destruct (str_eqb_spec a b); split; congruence. Qed.

Lemma str_eqb_refl a : str_eqb a a = true.
Proof. apply str_eqb_eq; reflexivity. Qed.

Definition mem_str (s : str) (l : list str) : bool := existsb (str_eqb s) l.

Lemma mem_str_In s l : mem_str s l = true <-> In s l.
Proof.
  unfold mem_str; rewrite existsb_exists; split.
  - intros [x [Hx He]]; apply str_eqb_eq in He; subst; exact Hx.
  - intros H; exists s; split; [exact H | apply str_eqb_refl].
Qed.

Definition len {A} (l : list A) : Z := Z.of_nat (length l).

Lemma fold_left_inv {A B} (P : A -> Prop) (f : A -> B -> A) :
  (forall a b, P a -> P (f a b)) -> forall l a, P a -> P (fold_left f l a).
Proof. intros Hf l. induction l as [|b l IH]; simpl; intros a H; [exact H | apply IH, Hf, H]. Qed.

(* association lists keyed by str: first match wins on lookup *)
Fixpoint alookup {V} (k : str) (m : list (str * V)) : option V :=
  match m with
  | [] => None
  | (k', v) :: m' => if str_eqb k k' then Some v else alookup k m'
  end.
Lemma alookup_In_key {A} k (m : list (str * A)) v : alookup k m = Some v -> In (k, v) m.
Proof.
  induction m as [|[k' v'] m IH]; intros H; cbn [alookup] in H; [discriminate|].
  destruct (str_eqb k k') eqn:E; [apply str_eqb_eq in E; subst k'; injection H as <-; left; reflexivity | right; exact (IH H)].
Qed.
